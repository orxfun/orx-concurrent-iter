(** Property C16 -- statements only.  Every theorem is closed by [exact] of a lemma of the development and
    followed by [Print Assumptions]. *)
From Coq Require Import ZArith.
From OCI Require Import Machine Checkers.
From OCI.proofs Require Import ArithOk Trace InvKnown ChkKnown.
Open Scope N_scope.

Check k_pull_spec : forall e q b, wf_env e -> wf_req q -> k_pull e q b = Ok (pull_spec e (q_n q) b).
Theorem c16_pull_arithmetic : forall e q b, wf_env e -> wf_req q -> k_pull e q b = Ok (pull_spec e (q_n q) b).
Proof. exact k_pull_spec. Qed.
Print Assumptions c16_pull_arithmetic.

Check pull_spec_got : forall e n b b' rs cnt, pull_spec e n b = PRGot b' rs cnt ->
  b' = b /\ rs = [mk_run (Some b) (val_of e b) cnt] /\ 1 <= cnt /\ cnt <= n /\ b + cnt <= e_len e /\
  (cnt < n -> b + cnt = e_len e).
Theorem c16_delivered_interval : forall e n b b' rs cnt, pull_spec e n b = PRGot b' rs cnt ->
  b' = b /\ rs = [mk_run (Some b) (val_of e b) cnt] /\ 1 <= cnt /\ cnt <= n /\ b + cnt <= e_len e /\
  (cnt < n -> b + cnt = e_len e).
Proof. exact pull_spec_got. Qed.
Print Assumptions c16_delivered_interval.


(** run level: nothing panics on any run of a known-size kind except the documented panics for a chunk
    size of zero, a one-shot chunk pull of size zero reports the end, the end of life never panics *)
From OCI.proofs Require Import RunC16.
Theorem c16_runs_known_kinds : forall e, known_env e -> forall progs, wf_progs progs -> plain_progs progs -> forall sched,
  nowrap (c_labels (exec e (init progs) sched)) ->
  chk_C16 e (c_trace (exec e (init progs) sched)) = true.
Proof. exact known_C16_run. Qed.
Print Assumptions c16_runs_known_kinds.

Theorem c16_end_of_life_known_kinds : forall e, known_env e -> forall progs, wf_progs progs -> plain_progs progs -> forall sched,
  nowrap (c_labels (exec e (init progs) sched)) -> forall t f,
  chk_C16 e (c_trace (final_step e (exec e (init progs) sched) t f)) = true.
Proof. exact known_C16_final. Qed.
Print Assumptions c16_end_of_life_known_kinds.

(** the wrapper over an arbitrary iterator whose next() and whose closures do not panic *)
From OCI.proofs Require Import IterBase ChkIter.
Theorem c16_runs_wrapped_iterator : forall e, iter_env e -> e_crash e = None -> forall progs, wf_progs progs -> plain_progs progs -> forall sched,
  nowrap (c_labels (exec e (init progs) sched)) ->
  chk_C16 e (c_trace (exec e (init progs) sched)) = true.
Proof. exact iter_C16_run. Qed.
Print Assumptions c16_runs_wrapped_iterator.

Theorem c16_end_of_life_wrapped_iterator : forall e, iter_env e -> e_crash e = None -> forall progs, wf_progs progs -> plain_progs progs -> forall sched,
  nowrap (c_labels (exec e (init progs) sched)) -> forall t f,
  chk_C16 e (c_trace (final_step e (exec e (init progs) sched) t f)) = true.
Proof. exact iter_C16_final. Qed.
Print Assumptions c16_end_of_life_wrapped_iterator.

(** ** the hypothesis [nowrap] is necessary (finding F16: for a source of usize::MAX elements,
    [next_chunk(usize::MAX); next(); next()] wraps the position counter and position 0 is delivered again):
    for each known-size kind a run that meets every other hypothesis of [c16_runs_known_kinds], on which a
    position is delivered twice (a conjunct of [check_prop 16]) and after the end was reported *)
From OCI.proofs Require Import Witnesses.
Theorem c16_refuted_when_the_position_counter_wraps :
  forall k, is_known k = true ->
  exists e progs sched, e_kind e = k /\ known_env e /\ wf_progs progs /\ plain_progs progs /\
    ~ nowrap (c_labels (exec e (init progs) sched)) /\
    chk_C01_nodup e (c_trace (exec e (init progs) sched)) = false /\
    check_prop 5 e (c_trace (exec e (init progs) sched)) (c_labels (exec e (init progs) sched)) = false /\
    check_prop 16 e (c_trace (exec e (init progs) sched)) (c_labels (exec e (init progs) sched)) = false.
Proof. exact f16_exactly_once_and_end_permanence_fail_when_the_position_counter_wraps. Qed.
Print Assumptions c16_refuted_when_the_position_counter_wraps.
