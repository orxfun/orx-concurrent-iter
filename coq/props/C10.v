(** Property C10 -- statements only.  Every theorem is closed by [exact] of a lemma of the development and
    followed by [Print Assumptions]. *)
From Coq Require Import ZArith.
From OCI Require Import Machine Checkers.
From OCI.proofs Require Import ArithOk Trace InvKnown ChkKnown.
Open Scope N_scope.

Check known_C10_final : forall e, known_env e -> forall progs, wf_progs progs -> forall sched,
  nowrap (c_labels (exec e (init progs) sched)) ->
  forall t k, n_pending (c_trace (exec e (init progs) sched)) = 0%Z -> chk_C10 e (c_trace (final_step e (exec e (init progs) sched) t (FIntoSeq k))) = true.
Theorem c10_known_kinds : forall e, known_env e -> forall progs, wf_progs progs -> forall sched,
  nowrap (c_labels (exec e (init progs) sched)) ->
  forall t k, n_pending (c_trace (exec e (init progs) sched)) = 0%Z -> chk_C10 e (c_trace (final_step e (exec e (init progs) sched) t (FIntoSeq k))) = true.
Proof. exact known_C10_final. Qed.
Print Assumptions c10_known_kinds.


(** the wrapper over an arbitrary iterator *)
From OCI.proofs Require Import IterBase ChkIter.
Theorem c10_wrapped_iterator : forall e, iter_env e -> forall progs, wf_progs progs -> forall sched,
  nowrap (c_labels (exec e (init progs) sched)) ->
  forall t k, n_pending (c_trace (exec e (init progs) sched)) = 0%Z ->
  chk_C10 e (c_trace (final_step e (exec e (init progs) sched) t (FIntoSeq k))) = true.
Proof. exact iter_C10_final. Qed.
Print Assumptions c10_wrapped_iterator.
