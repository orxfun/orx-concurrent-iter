(** Property C18 -- statements only.  Every theorem is closed by [exact] of a lemma of the development and
    followed by [Print Assumptions].

    The crash points are part of the environment ([e_crash]: the call of the wrapped iterator's next()
    that panics) and of the programs ([Loop l c (Some k)]: the closure invocation that panics); the
    theorems quantify over all of them. *)
From Coq Require Import ZArith List.
From OCI Require Import Machine Checkers.
From OCI.proofs Require Import ArithOk Trace InvKnown ChkKnown IterBase ChkIter ChkAll Progress IterFair IterLedger.
Import ListNotations.
Open Scope N_scope.

(** no element is delivered twice, whatever panics *)
Theorem c18_no_duplicate : forall e, src_env e -> fused e -> forall progs, wf_progs progs -> forall sched,
  nowrap (c_labels (exec e (init progs) sched)) ->
  chk_C01_nodup e (c_trace (exec e (init progs) sched)) = true.
Proof. exact all_nodup. Qed.
Print Assumptions c18_no_duplicate.

(** the other threads' calls still return: known-size kinds (nobody waits for anybody) *)
Theorem c18_others_return_known_kinds : forall e, known_env e -> forall progs, wf_progs progs ->
  forall sched s t,
  nowrap (c_labels (exec e (init progs) (sched ++ s))) ->
  t_pc (c_pool (exec e (init progs) sched) t) <> PIdle ->
  (budget e (exec e (init progs) sched) t <= count_occ Nat.eq_dec s t)%nat ->
  (rets t (c_trace (exec e (init progs) sched)) < rets t (c_trace (exec e (init progs) (sched ++ s))))%nat.
Proof. exact known_wait_free. Qed.
Print Assumptions c18_others_return_known_kinds.

(** the other threads' calls still return: the wrapped iterator panics at any of its calls *)
Theorem c18_others_return_wrapped_iterator : forall e, iter_env e -> forall progs, wf_progs progs ->
  forall sched blocks,
  let L := nodup Nat.eq_dec (sched ++ concat blocks) in
  nowrap (c_labels (exec e (init progs) (sched ++ concat blocks))) ->
  (forall blk, In blk blocks -> forall t, In t L -> (2 <= count_occ Nat.eq_dec blk t)%nat) ->
  (phi e L (exec e (init progs) sched) < Z.of_nat (length blocks))%Z ->
  (forall t, In t L -> t_pc (c_pool (exec e (init progs) (sched ++ concat blocks)) t) = PIdle /\
                       t_todo (c_pool (exec e (init progs) (sched ++ concat blocks)) t) = []) /\
  n_pending (c_trace (exec e (init progs) (sched ++ concat blocks))) = 0%Z.
Proof. exact iter_fair_termination. Qed.
Print Assumptions c18_others_return_wrapped_iterator.

(** every element of a consumed vector / array is moved out or destroyed exactly once, also when closures panic *)
Theorem c18_ledger_known_kinds : forall e, known_env e -> forall progs, wf_progs progs -> forall sched,
  nowrap (c_labels (exec e (init progs) sched)) ->
  chk_C08 e (c_trace (exec e (init progs) sched)) = true /\
  forall t f, n_pending (c_trace (exec e (init progs) sched)) = 0%Z -> chk_C08 e (c_trace (final_step e (exec e (init progs) sched) t f)) = true.
Proof. intros e He progs Hp sched Hw. split; [exact (known_C08_run e He progs Hp sched Hw)|exact (known_C08_final e He progs Hp sched Hw)]. Qed.
Print Assumptions c18_ledger_known_kinds.

(** the owning wrapper over an arbitrary iterator: the ledger stays exact when the wrapped iterator panics
    at any call and when closures panic *)
Theorem c18_ledger_wrapped_iterator : forall e, iter_env e -> forall progs, wf_progs progs -> forall sched,
  nowrap (c_labels (exec e (init progs) sched)) ->
  chk_C08 e (c_trace (exec e (init progs) sched)) = true.
Proof. exact iter_C08_run. Qed.
Print Assumptions c18_ledger_wrapped_iterator.

(** every wrapped iterator, fused or not, whatever panics: no position is moved out to two callers *)
Theorem c18_no_duplicate_any_iterator : forall e, iter_env e -> forall progs, wf_progs progs -> forall sched,
  nowrap (c_labels (exec e (init progs) sched)) ->
  pairwise_disj (taken_all e (c_trace (exec e (init progs) sched))) = true.
Proof. exact iter_taken_nodup. Qed.
Print Assumptions c18_no_duplicate_any_iterator.

(** containment at the level of single steps, without hypotheses (any kind, any crash point, any configuration):
    a step of thread [u] records only events of [u] -- its call and its return, the panic report included --
    so the events recorded during a schedule belong to the threads of the schedule, and a thread that takes
    no step is reported nothing: a panic unwinds only the call in which it happened *)
From OCI.proofs Require Import History.
Theorem c18_events_belong_to_scheduled_threads : forall e s c,
  exists evs, c_trace (exec e c s) = evs ++ c_trace c /\
              Forall (fun ev => exists u, In u s /\ ev_by u ev) evs.
Proof. exact events_belong_to_scheduled_threads. Qed.
Print Assumptions c18_events_belong_to_scheduled_threads.

Theorem c18_other_threads_are_reported_nothing : forall e s c t, ~ In t s ->
  exists evs, c_trace (exec e c s) = evs ++ c_trace c /\ Forall (fun ev => ~ ev_by t ev) evs.
Proof. exact unscheduled_thread_gets_no_event. Qed.
Print Assumptions c18_other_threads_are_reported_nothing.
