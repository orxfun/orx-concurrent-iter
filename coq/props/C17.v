(** Property C17 -- statements only.  Every theorem is closed by [exact] of a lemma of the development and
    followed by [Print Assumptions]. *)
From Coq Require Import ZArith.
From OCI Require Import Machine Checkers.
From OCI.proofs Require Import ArithOk Trace InvKnown ChkKnown.
Open Scope N_scope.

Check k_pull_modes : forall e q b, wf_env e -> wf_req q ->
  k_pull (with_mode e Checked) q b = k_pull (with_mode e Wrapping) q b.
Theorem c17_pull_same_in_both_modes : forall e q b, wf_env e -> wf_req q ->
  k_pull (with_mode e Checked) q b = k_pull (with_mode e Wrapping) q b.
Proof. exact k_pull_modes. Qed.
Print Assumptions c17_pull_same_in_both_modes.


(** run level: when no operation asks for a chunk size of zero, nothing panics at all on any run of a
    known-size kind, in either overflow mode (the environment's mode is arbitrary) *)
From OCI.proofs Require Import RunC16.
Theorem c17_no_panic_known_kinds : forall e, known_env e -> forall progs, wf_progs progs -> plain_progs progs ->
  (forall t, Forall op_nz (progs t)) -> forall sched,
  nowrap (c_labels (exec e (init progs) sched)) ->
  chk_no_panic (c_trace (exec e (init progs) sched)) = true.
Proof. exact known_C17_no_panic. Qed.
Print Assumptions c17_no_panic_known_kinds.

From OCI.proofs Require Import IterBase ChkIter.
Theorem c17_no_panic_wrapped_iterator : forall e, iter_env e -> e_crash e = None -> forall progs, wf_progs progs -> plain_progs progs ->
  (forall t, Forall op_nz (progs t)) -> forall sched,
  nowrap (c_labels (exec e (init progs) sched)) ->
  chk_no_panic (c_trace (exec e (init progs) sched)) = true.
Proof. exact iter_C17_no_panic. Qed.
Print Assumptions c17_no_panic_wrapped_iterator.

(** the main clause, at the level of whole runs: the run and the end of life of the model do not depend on the
    overflow mode -- every source kind, every program, every schedule that does not wrap the counters *)
From OCI.proofs Require Import ChkAll ModeIndep.
Theorem c17_runs_mode_independent : forall e, src_env e -> forall progs, wf_progs progs -> forall sched,
  nowrap (c_labels (exec e (init progs) sched)) ->
  forall m, exec (with_mode e m) (init progs) sched = exec e (init progs) sched.
Proof. exact exec_mode_independent. Qed.
Print Assumptions c17_runs_mode_independent.

Theorem c17_end_of_life_mode_independent : forall e, src_env e -> forall progs, wf_progs progs -> forall sched,
  nowrap (c_labels (exec e (init progs) sched)) ->
  forall m t f, final_step (with_mode e m) (exec (with_mode e m) (init progs) sched) t f =
                final_step e (exec e (init progs) sched) t f.
Proof. exact final_mode_independent. Qed.
Print Assumptions c17_end_of_life_mode_independent.
