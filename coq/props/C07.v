(** Property C07 -- statements only.  Every theorem is closed by [exact] of a lemma of the development and
    followed by [Print Assumptions]. *)
From Coq Require Import ZArith.
From OCI Require Import Machine Checkers.
From OCI.proofs Require Import ArithOk Trace InvKnown ChkKnown IterBase ChkIter InvIterH ChkAll.
Open Scope N_scope.

Check iter_mutex : forall e, iter_env e -> forall progs, wf_progs progs -> forall sched,
  nowrap (c_labels (exec e (init progs) sched)) ->
  forall t u, in_crit (t_pc (c_pool (exec e (init progs) sched) t)) = true -> in_crit (t_pc (c_pool (exec e (init progs) sched) u)) = true -> t = u.
Theorem c07_mutual_exclusion : forall e, iter_env e -> forall progs, wf_progs progs -> forall sched,
  nowrap (c_labels (exec e (init progs) sched)) ->
  forall t u, in_crit (t_pc (c_pool (exec e (init progs) sched) t)) = true -> in_crit (t_pc (c_pool (exec e (init progs) sched) u)) = true -> t = u.
Proof. exact iter_mutex. Qed.
Print Assumptions c07_mutual_exclusion.


Check iter_C07_hb : forall e, iter_env e -> forall progs, wf_progs progs -> forall sched,
  nowrap (c_labels (exec e (init progs) sched)) ->
  chk_C07_hb (c_labels (exec e (init progs) sched)) = true.
Theorem c07_happens_before : forall e, iter_env e -> forall progs, wf_progs progs -> forall sched,
  nowrap (c_labels (exec e (init progs) sched)) ->
  chk_C07_hb (c_labels (exec e (init progs) sched)) = true.
Proof. exact iter_C07_hb. Qed.
Print Assumptions c07_happens_before.

(** the mutual-exclusion scan of the label stream (the first half of [check_prop 7], which judges the
    crate's label streams) never objects to the model *)
Theorem c07_label_stream_scan : forall e, iter_env e -> forall progs, wf_progs progs -> forall sched,
  nowrap (c_labels (exec e (init progs) sched)) ->
  chk_C07_mutex (c_labels (exec e (init progs) sched)) = true.
Proof. exact iter_C07_mutex_scan. Qed.
Print Assumptions c07_label_stream_scan.

(** ** the wrapped iterator is not used after it has answered None

    on the label stream (latest label first): no call of the wrapped next() ([LSrc], [LSrcPanic]) follows one
    that answered None -- whether that None was the end of the wrapped iterator or a premature one.  (The
    thread that meets None raises the completed flag before it publishes; a thread that finds its ticket at
    the yielded counter afterwards looks at the completed flag once more and reports the end.) *)
From OCI.proofs Require Import AfterNone.
Theorem c07_no_call_after_none : forall e, iter_env e -> forall progs, wf_progs progs -> forall sched,
  nowrap (c_labels (exec e (init progs) sched)) ->
  no_src_after_none (c_labels (exec e (init progs) sched)) = true.
Proof. exact iter_no_src_after_none. Qed.
Print Assumptions c07_no_call_after_none.

(** the same with the panics of the wrapped iterator: no call follows one that answered None or panicked *)
Theorem c07_no_call_after_none_or_panic : forall e, iter_env e -> forall progs, wf_progs progs -> forall sched,
  nowrap (c_labels (exec e (init progs) sched)) ->
  no_src_after_stop (c_labels (exec e (init progs) sched)) = true.
Proof. exact iter_no_src_after_stop. Qed.
Print Assumptions c07_no_call_after_none_or_panic.

(** the state form: once some call has answered None, in every later state no thread is about to call the
    wrapped next(), and the completed flag is up or the thread that met the None is about to raise it *)
Theorem c07_none_is_final : forall e, iter_env e -> forall progs, wf_progs progs -> forall sched,
  nowrap (c_labels (exec e (init progs) sched)) ->
  existsb is_none (c_labels (exec e (init progs) sched)) = true ->
  (forall t q b g, t_pc (c_pool (exec e (init progs) sched) t) <> PSrc q b g) /\
  (s_f (c_sh (exec e (init progs) sched)) = true \/
   exists t, closing (t_pc (c_pool (exec e (init progs) sched) t)) = true).
Proof. exact iter_none_is_final. Qed.
Print Assumptions c07_none_is_final.

(** ** the hypothesis [nowrap] is necessary (finding F14: [next(); next_chunk(usize::MAX)] wraps the reserved
    counter of the wrapper; two pullers then hold the same ticket): a run that meets every other hypothesis
    of the theorems above, on which the scan objects and two distinct threads are inside together *)
From OCI.proofs Require Import RunC16 Witnesses.
Theorem c07_refuted_when_the_reserved_counter_wraps :
  exists e progs sched, iter_env e /\ fused e /\ e_crash e = None /\ wf_progs progs /\ plain_progs progs /\
    ~ nowrap (c_labels (exec e (init progs) sched)) /\
    chk_C07_mutex (c_labels (exec e (init progs) sched)) = false /\
    exists t u, t <> u /\
      in_crit (t_pc (c_pool (exec e (init progs) sched) t)) = true /\
      in_crit (t_pc (c_pool (exec e (init progs) sched) u)) = true.
Proof. exact f14_mutual_exclusion_fails_when_the_reserved_counter_wraps. Qed.
Print Assumptions c07_refuted_when_the_reserved_counter_wraps.

(** granularity of the interleaving model: a step of thread [u] records at most one label -- one atomic
    access or one call of the wrapped iterator's next() -- and that label carries [u]; so a run of [n] steps has
    at most [n] labels, each of a scheduled thread.  The theorems above quantify over every schedule of steps
    of this size: no two accesses of one thread are ever executed together as one indivisible step. *)
From OCI.proofs Require Import Progress History.
Theorem c07_one_access_per_step : forall e c u,
  c_labels (step e c u) = c_labels c \/
  exists l, c_labels (step e c u) = l :: c_labels c /\ lbl_tid l = u.
Proof. exact step_one_label. Qed.
Print Assumptions c07_one_access_per_step.

Theorem c07_labels_belong_to_scheduled_threads : forall e progs sched,
  Forall (fun l => In (lbl_tid l) sched) (c_labels (exec e (init progs) sched)) /\
  (length (c_labels (exec e (init progs) sched)) <= length sched)%nat.
Proof. exact run_labels_belong_to_scheduled_threads. Qed.
Print Assumptions c07_labels_belong_to_scheduled_threads.

(** book-keeping of the wrapped iterator's use: in every reachable state the number of elements it has yielded
    is at most the number of calls of its next() (each call is one step and yields at most one element) *)
Theorem c07_yields_at_most_once_per_call : forall e progs sched,
  (s_cur (c_sh (exec e (init progs) sched)) <= s_calls (c_sh (exec e (init progs) sched)))%N.
Proof. exact yields_at_most_once_per_call. Qed.
Print Assumptions c07_yields_at_most_once_per_call.

(** the ghost counters of the model are functions of the label stream -- the stream the correspondence check
    compares with the crate's, access by access: [s_calls] counts the labels that are calls of the wrapped
    next() ([n_src]), [s_cur] those at which it yielded an element ([n_yield]).  What the theorems say about the
    two counters is thereby a statement about the observable sequence of calls of the wrapped iterator *)
Theorem c07_calls_are_the_source_labels : forall e progs sched,
  s_calls (c_sh (exec e (init progs) sched)) = n_src (c_labels (exec e (init progs) sched)).
Proof. exact calls_are_the_source_labels. Qed.
Print Assumptions c07_calls_are_the_source_labels.

Theorem c07_cursor_is_the_yielding_labels : forall e progs sched,
  s_cur (c_sh (exec e (init progs) sched)) = n_yield (c_labels (exec e (init progs) sched)).
Proof. exact cursor_is_the_yielding_labels. Qed.
Print Assumptions c07_cursor_is_the_yielding_labels.

(** the label stream of every run is a sequentially consistent history of the three atomics (position /
    reserved counter, yielded counter, completed flag): [replay] executes it from the oldest label on against a
    memory that starts at (0, 0, false) and answers [None] at the first load that does not return the latest
    write to its site or fetch_add that does not report the value it found; it ends in the shared state of
    the model.  This is the exact content of "happens-before is computed over SC interleavings": the
    correspondence check compares this stream, values included, with the one the instrumented crate records *)
Theorem c07_label_stream_is_sequentially_consistent : forall e progs sched,
  replay (c_labels (exec e (init progs) sched)) = Some (mem_of (c_sh (exec e (init progs) sched))).
Proof. exact label_stream_is_sequentially_consistent. Qed.
Print Assumptions c07_label_stream_is_sequentially_consistent.
