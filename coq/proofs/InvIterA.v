(** * The wrapper over an arbitrary iterator: the ticket protocol and the deliveries (layer A).

    The invariant says: the program counters and the three shared numbers satisfy the protocol
    invariant [Prot] (disjoint tickets, the ticket at the yielded counter is the one inside the
    critical section, the elements taken there are the latest the wrapped iterator yielded), and, in a
    history without a panic, the elements delivered or held number [cursor].  When the wrapped
    iterator is fused ([IInvAF]) the elements taken are the positions [b, b + |got|), and all the
    intervals delivered or held tile [0, cursor) of the source. *)
From Coq Require Import Lia ZArith Permutation.
From OCI Require Import Machine Checkers.
From OCI.proofs Require Import Base Trace ArithOk InvKnown IterBase IterProt.
Open Scope N_scope.

Section IterA.

Variable e : env.
Hypothesis Hk : e_kind e = KIter.
Variable L : list tid.
Hypothesis NDL : NoDup L.

Definition wf_reqI (q : req) : Prop :=
  1 <= q_n q /\ q_n q < W /\ (forall v, q_mode q = MSingle v -> q_n q = 1).

Lemma pub_incr_n q : wf_reqI q -> pub_incr q = q_n q.
Proof. intros (_ & _ & H). unfold pub_incr. destruct (q_mode q); try reflexivity. symmetry. eapply H. reflexivity. Qed.

Definition ipc_ok (ts : tstate) : Prop :=
  match t_pc ts with
  | PIdle | PSkip | PLen _ | PLen2 _ => t_acc ts = []
  | PRes q | PChkF q _ | PLdY q _ | PChkT q _ => wf_reqI q /\ (q_ctx q = CTop -> t_acc ts = [])
  | PSrc q _ g => wf_reqI q /\ (q_ctx q = CTop -> t_acc ts = []) /\ N.of_nat (length g) < q_n q
  | PSetF q _ g => wf_reqI q /\ (q_ctx q = CTop -> t_acc ts = []) /\ N.of_nat (length g) < q_n q
  | PPub q _ g => wf_reqI q /\ (q_ctx q = CTop -> t_acc ts = []) /\ N.of_nat (length g) <= q_n q /\
                  (forall v, q_mode q = MSingle v -> length g = 1%nat)
  | PUnw q _ g => wf_reqI q /\ (q_ctx q = CTop -> t_acc ts = []) /\ N.of_nat (length g) < q_n q
  end.

(** the program counter at which the operation the thread is executing started *)
Definition entry_of (p : pc) : pc :=
  match req_of p with
  | Some q => PRes q
  | None => match p with PLen2 hm => PLen hm | _ => p end
  end.

Definition icall_ok (tr : list event) (t : tid) (ts : tstate) : Prop :=
  if is_idle ts then pend_call t tr = None
  else exists o older, pend_call t tr = Some (o, older) /\
       call_res e ts o = CGo (entry_of (t_pc ts)).

Definition iacc_ok (tr : list event) (t : tid) (ts : tstate) : Prop :=
  match pend_call t tr with
  | Some (o, older) =>
      forallb (run_idx_ok e) (t_acc ts) = true
      /\ (forall l c cr, o = Loop l c cr -> forallb (shape_ok l) (t_acc ts) = true)
      /\ increasing (rev (acc_iv e ts)) = true
      /\ all_above (iv_maxhi (cov e older)) (acc_iv e ts) = true
  | None => True
  end.

Definition ishape_ok (tr : list event) (t : tid) (ts : tstate) : Prop :=
  match pend_call t tr with
  | Some (o, older) => forall l c cr, o = Loop l c cr -> forallb (shape_ok l) (t_acc ts) = true
  | None => True
  end.

Definition pcs_of (c : cfg) : pcs := fun t => t_pc (c_pool c t).

(** as long as nothing has panicked, the number of elements delivered or held is [n] *)
Definition counting (cl : bool) (n : N) (h : list iv) : Prop := cl = true -> iv_total h = n.

(** the part of the invariant that needs a fused wrapped iterator: positions and indices coincide, so
    that the intervals delivered or held (which mix both) tile [0, cursor) *)
Record IInvAF (c : cfg) : Prop := {
  af_prot : ProtF (e_len e) (s_c (c_sh c)) (s_y (c_sh c)) (s_cur (c_sh c)) (pcs_of c);
  af_til  : tiling (npanic (c_trace c)) (s_cur (c_sh c)) (cov e (c_trace c) ++ helds e L (c_pool c));
  af_acc  : forall t, iacc_ok (c_trace c) t (c_pool c t)
}.

(** the invariant of every wrapped iterator, fused or not; the fused part under the hypothesis *)
Record IInvA (c : cfg) : Prop := {
  a_wf   : forall t, ipc_ok (c_pool c t) /\ Forall wf_op (t_todo (c_pool c t)) /\ wf_buf (t_buf (c_pool c t));
  a_out  : forall t, ~ In t L -> is_idle (c_pool c t) = true;
  a_call : forall t, icall_ok (c_trace c) t (c_pool c t);
  a_pend : n_pending (c_trace c) = sumZ (fun t => pendZ (c_pool c t)) L;
  a_prot : Prot (e_len e) (s_c (c_sh c)) (s_y (c_sh c)) (s_cur (c_sh c)) (pcs_of c);
  a_buf  : forall t bf, t_buf (c_pool c t) = Some bf -> buf_size t (c_trace c) = Some (bf_c bf);
  a_shape : forall t, ishape_ok (c_trace c) t (c_pool c t);
  a_nofin : has_final (c_trace c) = false;
  a_cnt  : counting (npanic (c_trace c)) (s_cur (c_sh c)) (cov e (c_trace c) ++ helds e L (c_pool c));
  a_fu   : fused e -> IInvAF c
}.

Lemma a_protF c : IInvA c -> fused e ->
  ProtF (e_len e) (s_c (c_sh c)) (s_y (c_sh c)) (s_cur (c_sh c)) (pcs_of c).
Proof. intros I Hfu. apply (af_prot c (a_fu c I Hfu)). Qed.

Lemma a_til c : IInvA c -> fused e ->
  tiling (npanic (c_trace c)) (s_cur (c_sh c)) (cov e (c_trace c) ++ helds e L (c_pool c)).
Proof. intros I Hfu. apply (af_til c (a_fu c I Hfu)). Qed.

Lemma a_acc c : IInvA c -> fused e -> forall t, iacc_ok (c_trace c) t (c_pool c t).
Proof. intros I Hfu. apply (af_acc c (a_fu c I Hfu)). Qed.

Lemma a_protA c : IInvA c ->
  ProtA (e_len e) (fused e) (s_c (c_sh c)) (s_y (c_sh c)) (s_cur (c_sh c)) (pcs_of c).
Proof. intros I. exact (conj (a_prot c I) (a_protF c I)). Qed.

Theorem mutex c : IInvA c -> forall t u,
  in_crit (t_pc (c_pool c t)) = true -> in_crit (t_pc (c_pool c u)) = true -> t = u.
Proof. intros I t u. apply (prot_mutex _ _ _ _ _ (a_prot c I)). Qed.

Lemma a_ipc c t p : IInvA c -> t_pc (c_pool c t) = p -> ipc_ok (set_pc (c_pool c t) p).
Proof. intros I <-. exact (proj1 (a_wf c I t)). Qed.

(** thread [t] commits a step.  What it does to the deliveries is stated locally: [newcov] is what the
    events of the step deliver, and [h] stands for everything the other threads hold and the trace had *)
Lemma iA_commit c t sh' ts' l evs newcov :
  IInvA c -> In t L -> evs_pc t (t_pc (c_pool c t)) (t_pc ts') evs ->
  cov e (evs ++ c_trace c) = newcov ++ cov e (c_trace c) ->
  ipc_ok ts' -> Forall wf_op (t_todo ts') -> wf_buf (t_buf ts') ->
  icall_ok (evs ++ c_trace c) t ts' ->
  (forall bf, t_buf ts' = Some bf -> buf_size t (evs ++ c_trace c) = Some (bf_c bf)) ->
  (fused e -> iacc_ok (evs ++ c_trace c) t ts') ->
  ishape_ok (evs ++ c_trace c) t ts' ->
  ProtA (e_len e) (fused e) (s_c sh') (s_y sh') (s_cur sh') (upd (pcs_of c) t (t_pc ts')) ->
  (fused e -> forall h, tiling (npanic (c_trace c)) (s_cur (c_sh c)) (held e (c_pool c t) ++ h) ->
                        tiling (npanic (evs ++ c_trace c)) (s_cur sh') ((newcov ++ held e ts') ++ h)) ->
  (npanic (evs ++ c_trace c) = true ->
     iv_total newcov + iv_total (held e ts') + s_cur (c_sh c) = s_cur sh' + iv_total (held e (c_pool c t))) ->
  IInvA (commit c t sh' ts' l evs).
Proof.
  intros I Hin Hev Hcov Hpc Htodo Hbuf Hcall Hbs Hacc Hshape HP Htil Hcnt.
  pose proof (evs_pc_of _ _ _ _ Hev) as Fev.
  assert (Hpcs : forall u, pcs_of (commit c t sh' ts' l evs) u = upd (pcs_of c) t (t_pc ts') u).
  { intros u. unfold pcs_of, commit, upd. cbn [c_pool]. destruct (Nat.eqb u t); reflexivity. }
  destruct (protA_ext _ _ _ _ _ _ _ Hpcs HP) as [Hprot HprotF].
  destruct (helds_upd e L (c_pool c) t ts' NDL Hin) as (rest & P1 & P2).
  assert (P1' : Permutation (cov e (c_trace c) ++ helds e L (c_pool c))
                            (held e (c_pool c t) ++ cov e (c_trace c) ++ rest)).
  { rewrite P1. apply Permutation_app_swap_app. }
  assert (P2' : Permutation ((newcov ++ held e ts') ++ cov e (c_trace c) ++ rest)
                            (cov e (evs ++ c_trace c) ++ helds e L (upd (c_pool c) t ts'))).
  { rewrite Hcov, P2, <- !app_assoc. apply Permutation_app_head, Permutation_app_swap_app. }
  split; cbn [commit c_pool c_trace c_sh].
  - intros u. spl u t; [auto|apply (a_wf c I)].
  - intros u Hu. rewrite upd_other by (intros ->; contradiction). apply (a_out c I), Hu.
  - intros u. spl u t; [exact Hcall|]. unfold icall_ok.
    rewrite (pend_call_others t u evs) by assumption. apply (a_call c I).
  - rewrite (evs_pc_pending _ _ _ _ _ Hev), (a_pend c I).
    transitivity (sumZ (upd (fun u => pendZ (c_pool c u)) t (pendZ ts')) L).
    + assert (Hb : forall ts, pendZ ts = busy (t_pc ts)) by (intros ts; unfold pendZ, is_idle; destruct (t_pc ts); reflexivity).
      rewrite sumZ_upd, !Hb by assumption. lia.
    + apply sumZ_ext. intros u _. unfold upd. destruct (Nat.eqb u t); reflexivity.
  - exact Hprot.
  - intros u bf. spl u t; [apply Hbs|]. rewrite (buf_size_others t u evs) by assumption. apply (a_buf c I).
  - intros u. spl u t; [exact Hshape|]. unfold ishape_ok.
    rewrite (pend_call_others t u evs) by assumption. apply (a_shape c I).
  - pose proof (a_nofin c I) as Hn. clear - Fev Hn. induction Fev as [|ev evs H1 _ IH]; [exact Hn|].
    destruct ev; try contradiction; exact IH.
  - intros Hc. specialize (Hcnt Hc). pose proof (a_cnt c I (npanic_app _ _ Hc)) as C.
    rewrite <- (iv_total_perm _ _ P2'). rewrite (iv_total_perm _ _ P1') in C. rewrite !iv_total_app in *. lia.
  - intros Hfu. split; cbn [commit c_pool c_trace].
    + exact (HprotF Hfu).
    + apply (tiling_perm _ _ _ _ P2'), (Htil Hfu), (tiling_perm _ _ _ _ P1'), (a_til c I Hfu).
    + intros u. spl u t; [exact (Hacc Hfu)|]. unfold iacc_ok.
      rewrite (pend_call_others t u evs) by assumption. apply (a_acc c I Hfu).
Qed.

Lemma call_go_iter ts o p : call_res e ts o = CGo p -> wf_op o -> wf_buf (t_buf ts) ->
  ticket p = None /\ in_crit p = false /\ p <> PIdle /\ (forall c0, o <> BufNew c0) /\
  match p with PRes q => wf_reqI q | PSkip | PLen _ => True | _ => False end /\
  entry_of p = p.
Proof.
  intros E Hwo Hbuf.
  assert (Hn : forall c0, o <> BufNew c0).
  { intros c0 ->. unfold call_res in E. destruct (c0 =? 0); discriminate E. }
  assert (Hp : match p with PRes q => wf_reqI q | PSkip | PLen _ => True | _ => False end).
  { unfold call_res in E. rewrite ?Hk in E. unfold wf_reqI.
    destruct o as [v|n k|n|k| |lk n cr| | |]; cbn [wf_op] in Hwo; try (injection E as <-; exact I).
    - injection E as <-. cbn [q_n]. repeat split; lia.
    - destruct (N.eqb_spec n 0); [discriminate E|]. injection E as <-. cbn [q_n]. repeat split; try lia. discriminate.
    - contradiction (Hn n). reflexivity.
    - destruct (t_buf ts) as [bf|]; [|discriminate E]. injection E as <-. destruct Hbuf. cbn [q_n].
      repeat split; try lia. discriminate.
    - discriminate E.
    - destruct (N.eqb_spec n 0); [discriminate E|]. destruct (N.eqb_spec n 1); injection E as <-; cbn [q_n];
        repeat split; try lia; discriminate. }
  destruct p; try contradiction; repeat split; try discriminate; assumption || reflexivity || apply Hp.
Qed.

Lemma held_idle ts : t_pc ts = PIdle -> t_acc ts = [] -> held e ts = [].
Proof. intros H1 H2. unfold held, acc_iv. rewrite H1, H2. reflexivity. Qed.

Lemma iacc_idle c t : IInvA c -> is_idle (c_pool c t) = true -> t_acc (c_pool c t) = [].
Proof.
  intros I H. destruct (a_wf c I t) as (Hpc & _ & _). unfold ipc_ok in Hpc. unfold is_idle in H.
  destruct (t_pc (c_pool c t)); try discriminate. exact Hpc.
Qed.

Lemma iA_call c t o rest :
  IInvA c -> In t L -> t_pc (c_pool c t) = PIdle -> t_todo (c_pool c t) = o :: rest ->
  IInvA (call e c t (c_pool c t) o rest).
Proof.
  intros I Hin Hpc Htodo.
  destruct (a_wf c I t) as (_ & Hops & Hbuf). rewrite Htodo in Hops.
  inversion Hops as [|? ? Hwo Hrest].
  assert (Hidle : is_idle (c_pool c t) = true) by (unfold is_idle; now rewrite Hpc).
  assert (Hheld : held e (c_pool c t) = []) by (apply held_idle; [exact Hpc|apply iacc_idle; assumption]).
  unfold call. destruct (call_res e (c_pool c t) o) as [p|b r d] eqn:E.
  - destruct (call_go_iter _ _ _ E Hwo Hbuf) as (Tp & _ & Nidle & Nbuf & Hreq & Hrq).
    set (ts' := {| t_pc := p; t_todo := rest; t_buf := t_buf (c_pool c t); t_acc := [] |}).
    assert (Hni : is_idle ts' = false) by (unfold is_idle; destruct p; try reflexivity; contradiction Nidle).
    assert (Hheld' : held e ts' = []) by (rewrite held_eq; unfold crit_iv; cbn [ts' t_pc]; rewrite Tp; reflexivity).
    apply iA_commit with (newcov := []); try assumption.
    + rewrite Hpc. repeat split. exact Nidle.
    + reflexivity.
    + unfold ipc_ok. cbn [ts' t_pc]. destruct p; try contradiction; auto.
    + unfold icall_ok. rewrite Hni. exists o, (c_trace c). split; [apply pend_call_self_call|].
      cbn [ts' t_pc]. rewrite Hrq. exact (call_res_buf e _ _ o eq_refl _ E).
    + cbn [app]. intros bf Hbf. rewrite buf_size_call_nonbuf by assumption. exact (a_buf c I t bf Hbf).
    + unfold iacc_ok. cbn [app]. rewrite pend_call_self_call. repeat split.
    + unfold ishape_ok. cbn [app]. rewrite pend_call_self_call. reflexivity.
    + apply protA_drop; [exact Tp|apply a_protA, I].
    + intros _ h T. rewrite Hheld'. rewrite Hheld in T. exact T.
    + rewrite Hheld, Hheld'. cbn [iv_total]. lia.
  - (* the operation returns at once *)
    assert (Hret : res_cover e r = [] /\ wf_buf b /\
                   (forall bf, b = Some bf -> buf_size t (ECall t o :: c_trace c) = Some (bf_c bf))).
    { pose proof (a_buf c I t) as Hbs. unfold call_res in E. rewrite ?Hk in E.
      destruct o as [v|n k|n|k| |lk n cr| | |]; cbn [wf_op] in Hwo; try discriminate E.
      - destruct (n =? 0); [|discriminate E]. injection E as <- <- <-. auto.
      - cbn [buf_size]. rewrite Nat.eqb_refl. destruct (N.eqb_spec n 0) as [->|Hz]; injection E as <- <- <-.
        + auto.
        + split; [reflexivity|]. split; [cbn; lia|]. intros bf Hbf. injection Hbf as <-. reflexivity.
      - destruct (t_buf (c_pool c t)); [discriminate E|]. injection E as <- <- <-. repeat split. discriminate.
      - injection E as <- <- <-. repeat split. discriminate.
      - destruct (n =? 0); [|destruct (n =? 1); discriminate E]. injection E as <- <- <-. auto. }
    destruct Hret as (Hcov & Hb & Hbs).
    apply iA_commit with (newcov := []); try assumption.
    + rewrite Hpc. repeat split.
    + cbn [app cov]. rewrite Hcov. reflexivity.
    + reflexivity.
    + apply pend_call_self_ret.
    + intros _. unfold iacc_ok. cbn [app]. rewrite pend_call_self_ret. exact I0.
    + unfold ishape_ok. cbn [app]. rewrite pend_call_self_ret. exact I0.
    + apply protA_drop; [reflexivity|apply a_protA, I].
    + intros _ h T. rewrite Hheld in T. eapply tiling_weaken; [|exact T].
      intros C. eapply npanic_cons, npanic_cons, C.
    + rewrite Hheld. cbn. lia.
Qed.

Lemma iA_silent c t pc0 sh' p' l :
  IInvA c -> In t L -> t_pc (c_pool c t) = pc0 ->
  is_idle (set_pc (c_pool c t) p') = false -> entry_of p' = entry_of pc0 ->
  ipc_ok (set_pc (c_pool c t) p') ->
  ProtA (e_len e) (fused e) (s_c sh') (s_y sh') (s_cur sh') (upd (pcs_of c) t p') ->
  (fused e -> forall cl h, tiling cl (s_cur (c_sh c)) (crit_iv pc0 ++ h) -> tiling cl (s_cur sh') (crit_iv p' ++ h)) ->
  s_cur sh' + iv_total (crit_iv pc0) = s_cur (c_sh c) + iv_total (crit_iv p') ->
  IInvA (commit c t sh' (set_pc (c_pool c t) p') l []).
Proof.
  intros I Hin Hpc Hni' Hent Hok HP Htil Hcnt.
  destruct (a_wf c I t) as (_ & Hops & Hbuf).
  assert (Hni : is_idle (c_pool c t) = false).
  { unfold is_idle. rewrite Hpc. destruct pc0; try reflexivity. destruct p'; discriminate. }
  apply iA_commit with (newcov := []); try assumption.
  - unfold is_idle in Hni, Hni'. split; intros E; [rewrite E in Hni; discriminate Hni|cbn [t_pc]; rewrite E in Hni'; discriminate Hni'].
  - reflexivity.
  - pose proof (a_call c I t) as Hc. unfold icall_ok in *. rewrite Hni in Hc. rewrite Hni'.
    destruct Hc as (o & older & Hp & Hres). exists o, older. split; [exact Hp|].
    cbn [set_pc t_pc]. rewrite Hent, <- Hpc. exact (call_res_buf e _ _ o eq_refl _ Hres).
  - exact (a_buf c I t).
  - intros Hfu. exact (a_acc c I Hfu t).
  - exact (a_shape c I t).
  - intros Hfu h T. rewrite held_eq, Hpc in T. rewrite held_set_pc. cbn [app].
    apply (tiling_perm _ _ _ _ (Permutation_sym (perm_swap_front _ _ _))), (Htil Hfu), (tiling_perm _ _ _ _ (perm_swap_front _ _ _)), T.
  - rewrite held_set_pc, held_eq, Hpc, !iv_total_app. cbn [iv_total]. lia.
Qed.

(** a move that changes nothing the invariant looks at *)
Lemma iA_keep c t pc0 sh' p' l :
  IInvA c -> In t L -> t_pc (c_pool c t) = pc0 ->
  is_idle (set_pc (c_pool c t) p') = false -> entry_of p' = entry_of pc0 ->
  ticket p' = ticket pc0 -> in_crit p' = in_crit pc0 -> got_of p' = got_of pc0 ->
  s_c sh' = s_c (c_sh c) -> s_y sh' = s_y (c_sh c) -> s_cur sh' = s_cur (c_sh c) ->
  (fused e -> match p' with PPub _ _ _ | PSetF _ _ _ => s_cur (c_sh c) = e_len e | _ => True end) ->
  ipc_ok (set_pc (c_pool c t) p') ->
  IInvA (commit c t sh' (set_pc (c_pool c t) p') l []).
Proof.
  intros I Hin Hpc Hni' Hent Et Ec Eg E1 E2 E3 Hx Hok.
  assert (Ev : crit_iv p' = crit_iv pc0) by (unfold crit_iv; rewrite Et, Ec, Eg; reflexivity).
  apply (iA_silent c t pc0); try assumption.
  - rewrite E1, E2, E3. exact (protA_keep _ _ _ _ _ _ t pc0 p' Hpc Et Ec Eg Hx (a_protA c I)).
  - intros _ cl h T. rewrite E3, Ev. exact T.
  - rewrite E3, Ev. reflexivity.
Qed.

Lemma acc_iv_rev ts : Permutation (map (run_iv e) (rev (t_acc ts))) (acc_iv e ts).
Proof. rewrite map_rev. symmetry. apply Permutation_rev. Qed.

(** the thread is left idle with nothing in its hands and a buffer of the size it had *)
Lemma iA_return c t pc0 sh' ts' l r d :
  IInvA c -> In t L -> t_pc (c_pool c t) = pc0 -> pc0 <> PIdle ->
  t_pc ts' = PIdle -> t_acc ts' = [] -> t_todo ts' = t_todo (c_pool c t) ->
  option_map bf_c (t_buf ts') = option_map bf_c (t_buf (c_pool c t)) ->
  ProtA (e_len e) (fused e) (s_c sh') (s_y sh') (s_cur sh') (upd (pcs_of c) t PIdle) ->
  (fused e -> forall h, tiling (npanic (c_trace c)) (s_cur (c_sh c)) (crit_iv pc0 ++ acc_iv e (c_pool c t) ++ h) ->
                        tiling (negb (is_panic r) && npanic (c_trace c)) (s_cur sh') (res_cover e r ++ h)) ->
  (is_panic r = false ->
     iv_total (res_cover e r) + s_cur (c_sh c) = s_cur sh' + iv_total (crit_iv pc0) + iv_total (acc_iv e (c_pool c t))) ->
  IInvA (commit c t sh' ts' l [ERet t r d]).
Proof.
  intros I Hin Hpc Hni Hp' Ha' Ht' Hbk HP Htil Hcnt.
  destruct (a_wf c I t) as (_ & Hops & Hbuf).
  assert (Hid : is_idle ts' = true) by (unfold is_idle; rewrite Hp'; reflexivity).
  assert (Hh' : held e ts' = []) by (apply held_idle; assumption).
  apply iA_commit with (newcov := res_cover e r); try assumption.
  - rewrite Hpc, Hp'. repeat split. exact Hni.
  - reflexivity.
  - unfold ipc_ok. rewrite Hp'. exact Ha'.
  - rewrite Ht'. exact Hops.
  - destruct (t_buf ts') as [bf'|]; [|exact I0]. destruct (t_buf (c_pool c t)) as [bf|]; [|discriminate Hbk].
    injection Hbk as Ec. cbn [wf_buf]. rewrite Ec. exact Hbuf.
  - unfold icall_ok. rewrite Hid. apply pend_call_self_ret.
  - intros bf' E. rewrite E in Hbk. destruct (t_buf (c_pool c t)) as [bf|] eqn:Eb; [|discriminate Hbk].
    injection Hbk as ->. exact (a_buf c I t bf Eb).
  - intros _. unfold iacc_ok. cbn [app]. rewrite pend_call_self_ret. exact I0.
  - unfold ishape_ok. cbn [app]. rewrite pend_call_self_ret. exact I0.
  - rewrite Hp'. exact HP.
  - intros Hfu h T. rewrite held_eq, Hpc in T. rewrite Hh', app_nil_r. cbn [app]. rewrite npanic_ret.
    apply (Htil Hfu), (tiling_perm _ _ _ _ (perm_swap_front _ _ _)), T.
  - cbn [app]. rewrite npanic_ret, Hh', held_eq, Hpc, iv_total_app. intros Hc.
    apply andb_true_iff in Hc. destruct Hc as [Hc _]. apply negb_true_iff in Hc. specialize (Hcnt Hc). cbn [iv_total]. lia.
Qed.

(** a pull that has taken nothing reports the end *)
Lemma iA_finish_end c t pc0 sh' q l :
  IInvA c -> In t L -> t_pc (c_pool c t) = pc0 -> pc0 <> PIdle ->
  (q_ctx q = CTop -> t_acc (c_pool c t) = []) -> got_of pc0 = [] -> s_cur sh' = s_cur (c_sh c) ->
  ProtA (e_len e) (fused e) (s_c sh') (s_y sh') (s_cur sh') (upd (pcs_of c) t PIdle) ->
  IInvA (finish e c t sh' (c_pool c t) l q (Ok PREnd)).
Proof.
  intros I Hin Hpc Hni Hacc Hg Hcur HP.
  assert (HX0 : iv_total (crit_iv pc0) = 0) by (rewrite iv_total_crit, Hg; reflexivity).
  assert (HX : forall cl n h, tiling cl n (crit_iv pc0 ++ h) -> tiling cl n h).
  { unfold crit_iv. rewrite Hg. intros cl n h. destruct (ticket pc0) as [[b0 n0]|]; [destruct (in_crit pc0)|]; auto.
    apply tiling_empty_iv. reflexivity. }
  unfold finish, deliver. destruct (q_ctx q) as [|lk crash].
  - (* directly *)
    specialize (Hacc eq_refl).
    apply (iA_return c t pc0); try assumption; try reflexivity.
    + intros _ h T. apply HX in T. unfold acc_iv in T. rewrite Hacc in T. rewrite Hcur. exact T.
    + unfold acc_iv. rewrite Hacc. cbn. lia.
  - (* the loop returns *)
    apply (iA_return c t pc0); try assumption; try reflexivity.
    + intros _ h T. apply HX in T. rewrite Hcur. refine (tiling_perm _ _ _ _ _ T).
      apply Permutation_app_tail. symmetry. apply acc_iv_rev.
    + cbn [res_cover res_taken]. rewrite (iv_total_perm _ _ (acc_iv_rev _)). lia.
Qed.

Lemma iA_res c t q :
  IInvA c -> In t L -> t_pc (c_pool c t) = PRes q ->
  s_c (c_sh c) + pub_incr q < W ->
  IInvA (step e c t).
Proof.
  intros I Hin Hpc Hw. rewrite (istep_res e Hk c t q Hpc), wadd_nowrap by assumption.
  destruct (a_ipc c t _ I Hpc) as [Hq Hacc].
  apply (iA_silent c t (PRes q)); try assumption; try reflexivity.
  - exact (conj Hq Hacc).
  - apply protA_reserve with (pc0 := PRes q); try reflexivity; [exact Hpc| |apply a_protA, I].
    rewrite (pub_incr_n q Hq). apply Hq.
  - intros _ cl h T. exact T.
Qed.

Lemma iA_chkf c t q b :
  IInvA c -> In t L -> t_pc (c_pool c t) = PChkF q b -> IInvA (step e c t).
Proof.
  intros I Hin Hpc. rewrite (istep_chkf e c t q b Hpc).
  destruct (a_ipc c t _ I Hpc) as [Hq Hacc].
  destruct (s_f (c_sh c)).
  - (* completed: the pull reports the end and gives its ticket up *)
    apply (iA_finish_end c t (PChkF q b)); try assumption; try reflexivity; [discriminate|].
    apply protA_drop; [reflexivity|apply a_protA, I].
  - apply (iA_keep c t (PChkF q b)); try assumption; try reflexivity. exact (conj Hq Hacc).
Qed.

Lemma iA_ldy c t q b :
  IInvA c -> In t L -> t_pc (c_pool c t) = PLdY q b -> IInvA (step e c t).
Proof.
  intros I Hin Hpc. rewrite (istep_ldy e c t q b Hpc).
  destruct (a_ipc c t _ I Hpc) as [Hq Hacc].
  pose proof (p_tk _ _ _ _ _ (a_prot c I) t _ _ (f_equal ticket Hpc)) as Hb.
  destruct (N.eqb_spec b (s_y (c_sh c))) as [Eb|Nb].
  - (* its turn: it enters the critical section (where it first looks at the completed flag once more) *)
    subst b. apply (iA_silent c t (PLdY q (s_y (c_sh c)))); try assumption; try reflexivity.
    + exact (conj Hq Hacc).
    + apply protA_enter with (pc0 := PLdY q (s_y (c_sh c))); [exact Hpc|reflexivity|reflexivity|apply a_protA, I].
    + intros _ cl h T. apply tiling_empty_iv; [reflexivity|exact T].
  - destruct (N.ltb_spec b (s_y (c_sh c))); [lia|].
    apply (iA_keep c t (PLdY q b)); try assumption; try reflexivity. exact (conj Hq Hacc).
Qed.

Lemma iA_chkt c t q b :
  IInvA c -> In t L -> t_pc (c_pool c t) = PChkT q b -> IInvA (step e c t).
Proof.
  intros I Hin Hpc. rewrite (istep_chkt e c t q b Hpc).
  destruct (a_ipc c t _ I Hpc) as [Hq Hacc].
  destruct (s_f (c_sh c)).
  - (* completed in the meantime: the pull reports the end and abandons its ticket *)
    apply (iA_finish_end c t (PChkT q b)); try assumption; try reflexivity; [discriminate|].
    apply protA_drop; [reflexivity|apply a_protA, I].
  - apply (iA_keep c t (PChkT q b)); try assumption; try reflexivity.
    refine (conj Hq (conj Hacc _)). destruct Hq. cbn. lia.
Qed.

Lemma single_got q (g : list N) v : wf_reqI q -> q_mode q = MSingle v -> N.of_nat (length g) < q_n q -> g = [].
Proof. intros (_ & _ & H1) M Hlt. rewrite (H1 v M) in Hlt. destruct g; [reflexivity|cbn [length] in Hlt; lia]. Qed.

Lemma iA_take c t q b g x l :
  IInvA c -> In t L -> t_pc (c_pool c t) = PSrc q b g -> s_cur (c_sh c) < e_len e ->
  entry_of x = PRes q -> ticket x = Some (b, pub_incr q) -> in_crit x = true -> got_of x = s_cur (c_sh c) :: g ->
  match x with PPub q0 _ g0 => N.of_nat (length g0) = pub_incr q0 | PSetF _ _ _ => False | _ => True end ->
  ipc_ok (set_pc (c_pool c t) x) ->
  IInvA (commit c t (with_src (c_sh c) (s_cur (c_sh c) + 1) (s_calls (c_sh c) + 1)) (set_pc (c_pool c t) x) l []).
Proof.
  intros I Hin Hpc Hsl Hent Tx Cx Gx Hx Hok.
  assert (Ev : crit_iv x = [(b, N.of_nat (length g) + 1)]).
  { unfold crit_iv. rewrite Tx, Cx, Gx. cbn [length]. rewrite Nat2N.inj_succ, N.add_1_r. reflexivity. }
  apply (iA_silent c t (PSrc q b g)); try assumption.
  - destruct x; try discriminate Cx; reflexivity.
  - apply protA_take with (pc0 := PSrc q b g); try assumption; [reflexivity|intros _; exact Hx|apply a_protA, I].
  - intros Hfu cl h T. rewrite Ev. apply tiling_grow0; [exact T|].
    destruct (p_got _ _ _ _ _ (a_protF c I Hfu) t _ _ (f_equal in_crit Hpc) (f_equal ticket Hpc)) as [_ Hc].
    unfold pcs_of in Hc. rewrite Hpc in Hc. destruct Hc as [Hc|[_ Hc]]; [symmetry; exact Hc|lia].
  - rewrite Ev. cbn [with_src s_cur crit_iv ticket in_crit got_of iv_total snd]. lia.
Qed.

Lemma iA_src c t q b g :
  IInvA c -> In t L -> t_pc (c_pool c t) = PSrc q b g -> IInvA (step e c t).
Proof.
  intros I Hin Hpc.
  destruct (a_ipc c t _ I Hpc) as (Hq & Hacc & Hlt).
  rewrite (istep_src e c t q b g Hpc) by (intros v M; split; [exact (proj2 (proj2 Hq) v M)|exact (single_got q g v Hq M Hlt)]).
  destruct (crashes_now e (c_sh c)).
  - (* the wrapped iterator panics *)
    apply (iA_keep c t (PSrc q b g)); try assumption; try reflexivity. exact (conj Hq (conj Hacc Hlt)).
  - destruct (src_next_cases e (c_sh c)) as [[-> Hsl]|[-> Hsl]].
    + (* an element: the reservation is full, or the thread goes on *)
      destruct (N.eqb_spec (N.of_nat (length (s_cur (c_sh c) :: g))) (q_n q)) as [Hn|Hn];
        apply (iA_take c t q b g); try assumption; try reflexivity.
      * rewrite (pub_incr_n q Hq). exact Hn.
      * refine (conj Hq (conj Hacc (conj _ _))); [lia|]. intros v Mv. rewrite (proj2 (proj2 Hq) v Mv) in Hn. lia.
      * refine (conj Hq (conj Hacc _)). cbn [length] in *. lia.
    + (* the wrapped iterator answers None: when it is fused, it is exhausted *)
      apply (iA_keep c t (PSrc q b g)); try assumption; try reflexivity; [|exact (conj Hq (conj Hacc Hlt))].
      intros Hfu. pose proof (p_cur _ _ _ _ _ (a_prot c I)). specialize (Hsl Hfu). lia.
Qed.

Lemma iA_setf c t q b g :
  IInvA c -> In t L -> t_pc (c_pool c t) = PSetF q b g -> IInvA (step e c t).
Proof.
  intros I Hin Hpc. rewrite (istep_setf e c t q b g Hpc).
  destruct (a_ipc c t _ I Hpc) as (Hq & Hacc & Hlt).
  destruct (q_mode q) as [v|k|k] eqn:M.
  2, 3: apply (iA_keep c t (PSetF q b g)); try assumption; try reflexivity;
        [intros Hfu; exact (p_setf _ _ _ _ _ (a_protF c I Hfu) t q b g Hpc)|];
        refine (conj Hq (conj Hacc (conj _ _))); [lia|rewrite M; discriminate].
  (* a single pull: it reports the end without publishing *)
  rewrite (single_got q g v Hq M Hlt) in *.
  apply (iA_finish_end c t (PSetF q b [])); try assumption; try reflexivity; [discriminate|].
  apply protA_drop; [reflexivity|apply a_protA, I].
Qed.

(** results that deliver nothing, from a thread without a ticket (skip_to_end, the length queries) *)
Lemma iA_ret_plain c t pc0 sh' r l :
  IInvA c -> In t L -> t_pc (c_pool c t) = pc0 -> pc0 <> PIdle -> crit_iv pc0 = [] ->
  t_acc (c_pool c t) = [] -> res_cover e r = [] ->
  s_c sh' = s_c (c_sh c) -> s_y sh' = s_y (c_sh c) -> s_cur sh' = s_cur (c_sh c) ->
  IInvA (commit c t sh' (set_pc (c_pool c t) PIdle) l [ERet t r []]).
Proof.
  intros I Hin Hpc Hni Hx Hacc Hcov E1 E2 E3.
  apply (iA_return c t pc0); try assumption; try reflexivity.
  - rewrite E1, E2, E3. apply protA_drop; [reflexivity|apply a_protA, I].
  - intros _ h T. rewrite Hx in T. unfold acc_iv in T. rewrite Hacc in T. rewrite Hcov, E3.
    refine (tiling_weaken _ _ _ _ _ T). intros C. apply andb_true_iff in C. apply C.
  - unfold acc_iv. rewrite Hcov, Hx, Hacc. cbn. lia.
Qed.

Lemma iA_skip c t : IInvA c -> In t L -> t_pc (c_pool c t) = PSkip -> IInvA (step e c t).
Proof.
  intros I Hin Hpc. rewrite (istep_skip e Hk c t Hpc).
  pose proof (a_ipc c t _ I Hpc) as Hacc.
  apply (iA_ret_plain c t PSkip); try assumption; try reflexivity. discriminate.
Qed.

Lemma iA_len c t hm : IInvA c -> In t L -> t_pc (c_pool c t) = PLen hm -> IInvA (step e c t).
Proof.
  intros I Hin Hpc. rewrite (istep_len e Hk c t hm Hpc).
  pose proof (a_ipc c t _ I Hpc) as Hacc.
  (* the answer is given at once, unless the flag is down and the hint is exact: then the reserved counter is read *)
  destruct (s_f (c_sh c)); [|destruct (e_hint e)];
    try (apply (iA_ret_plain c t (PLen hm)); try assumption; try reflexivity; [discriminate|destruct hm; reflexivity]).
  apply (iA_keep c t (PLen hm)); try assumption; reflexivity.
Qed.

Lemma iA_len2 c t hm : IInvA c -> In t L -> t_pc (c_pool c t) = PLen2 hm -> IInvA (step e c t).
Proof.
  intros I Hin Hpc. rewrite (istep_len2 e c t hm Hpc).
  pose proof (a_ipc c t _ I Hpc) as Hacc.
  apply (iA_ret_plain c t (PLen2 hm)); try assumption; try reflexivity; [discriminate|destruct hm; reflexivity].
Qed.

Lemma iA_unw c t q b g :
  IInvA c -> In t L -> t_pc (c_pool c t) = PUnw q b g -> IInvA (step e c t).
Proof.
  intros I Hin Hpc.
  assert (Hgen : forall ts' d l, t_pc ts' = PIdle -> t_acc ts' = [] -> t_todo ts' = t_todo (c_pool c t) ->
            option_map bf_c (t_buf ts') = option_map bf_c (t_buf (c_pool c t)) ->
            IInvA (commit c t (with_f (c_sh c) true) ts' l [ERet t (RPanic PkSource (rev (t_acc (c_pool c t)))) d])).
  { intros ts' d l Hp' Ha' Ht' Hbk. apply (iA_return c t (PUnw q b g)); try assumption; try discriminate.
    - apply protA_drop; [reflexivity|apply a_protA, I].
    - intros _ h T. apply tiling_unclean, tiling_drop_head in T. refine (tiling_perm _ _ _ _ _ T).
      apply Permutation_app_tail. symmetry. apply acc_iv_rev. }
  unfold step. rewrite Hpc.
  destruct (q_ctx q); [|apply Hgen; reflexivity].
  destruct (q_mode q); try (apply Hgen; reflexivity).
  rewrite Hk. destruct (t_buf (c_pool c t)) as [bf|]; [|apply Hgen; reflexivity].
  destruct (write_slots (bf_slots bf) (rev g)) as [sl stale].
  apply Hgen; reflexivity.
Qed.

Lemma val_of_iter b : val_of e b = b.
Proof. unfold val_of. rewrite Hk. reflexivity. Qed.

Lemma iv_total_runs rs : iv_total (map (run_iv e) rs) = total_cnt rs.
Proof. induction rs as [|r rs IH]; [reflexivity|]. cbn [map iv_total]. rewrite IH. reflexivity. Qed.

Lemma total_cnt_take : forall rs k, k <= total_cnt rs -> total_cnt (runs_take k rs) = k.
Proof.
  induction rs as [|r rs IH]; intros k Hle; cbn [runs_take total_cnt] in *; [lia|].
  destruct (N.eqb_spec k 0) as [->|Hz]; [reflexivity|]. destruct (N.leb_spec (r_cnt r) k) as [H|H].
  - cbn [total_cnt]. rewrite IH by lia. lia.
  - cbn [total_cnt mk_run r_cnt]. lia.
Qed.

Lemma total_cnt_runs_of vs : forall i, total_cnt (runs_of i vs) = N.of_nat (length vs).
Proof.
  induction vs as [|v vs IH]; intros i; [reflexivity|]. cbn [runs_of length]. specialize (IH (i + 1)).
  destruct (runs_of (i + 1) vs) as [|r rs].
  - cbn [total_cnt mk_run r_cnt] in *. lia.
  - destruct (r_val r =? v + 1); cbn [total_cnt mk_run r_cnt] in *; lia.
Qed.

Lemma loop_invoke_total l crash done rs cnt inv :
  loop_invoke l crash done rs cnt = (inv, None) -> iv_total (map (run_iv e) inv) = total_cnt rs.
Proof.
  unfold loop_invoke. intros E.
  assert (inv = map (match l with LEnum => fun r => r | _ => strip_idx end) rs) as ->.
  { destruct crash as [k|]; [destruct ((done <=? k) && (k <? done + cnt)); [discriminate E|]|]; injection E as <-; reflexivity. }
  rewrite map_map, <- iv_total_runs. destruct l; reflexivity.
Qed.

Lemma runs_of_nonnil i v vs : runs_of i (v :: vs) <> [].
Proof.
  cbn [runs_of]. destruct (runs_of (i + 1) vs) as [|r rs]; [discriminate|]. destruct (r_val r =? v + 1); discriminate.
Qed.

Lemma runs_of_idx vs : forall i r, In r (runs_of i vs) -> r_idx r <> None.
Proof.
  induction vs as [|v vs IH]; intros i r; cbn [runs_of]; [intros []|].
  destruct (runs_of (i + 1) vs) as [|r0 rs] eqn:E.
  - intros [<-|[]]. discriminate.
  - destruct (r_val r0 =? v + 1).
    + intros [<-|H]; [discriminate|]. apply (IH (i + 1)). rewrite E. right. exact H.
    + intros [<-|H]; [discriminate|]. apply (IH (i + 1)). rewrite E. exact H.
Qed.

Lemma runs_take_idx : forall rs k r, In r (runs_take k rs) -> exists r0, In r0 rs /\ r_idx r = r_idx r0.
Proof.
  induction rs as [|a rs IH]; intros k r; cbn [runs_take]; [intros []|].
  destruct (k =? 0); [intros []|]. destruct (r_cnt a <=? k).
  - intros [<-|H]; [exists a; split; [left; reflexivity|reflexivity]|].
    destruct (IH _ _ H) as (r0 & H0 & E). exists r0. split; [right; exact H0|exact E].
  - intros [<-|[]]. exists a. split; [left; reflexivity|reflexivity].
Qed.

Lemma loop_invoke_shape l crash done rs cnt :
  (forall r, In r rs -> r_idx r <> None) ->
  forallb (shape_ok l) (fst (loop_invoke l crash done rs cnt)) = true.
Proof.
  intros H. unfold loop_invoke.
  assert (Hm : forall rs', (forall r, In r rs' -> r_idx r <> None) ->
            forallb (shape_ok l) (map (match l with LEnum => fun r => r | _ => strip_idx end) rs') = true).
  { intros rs' H'. apply forallb_forall. intros x Hx. apply in_map_iff in Hx. destruct Hx as (r & <- & Hr).
    specialize (H' r Hr). unfold shape_ok. destruct l; try reflexivity.
    destruct (r_idx r); [reflexivity|contradiction]. }
  destruct crash as [k|]; [|apply Hm; exact H].
  destruct ((done <=? k) && (k <? done + cnt)); apply Hm; [|exact H].
  intros r Hr. destruct (runs_take_idx _ _ _ Hr) as (r0 & H0 & E). rewrite E. apply H. exact H0.
Qed.

(** everything delivered so far, and everything the thread's loop has handled, lies below what the
    thread inside the critical section has taken *)
Lemma top_below c t b k :
  IInvA c -> fused e -> In t L ->
  held e (c_pool c t) = acc_iv e (c_pool c t) ++ [(b, k)] -> b + k = s_cur (c_sh c) -> 1 <= k ->
  iv_maxhi (cov e (c_trace c)) <= b /\ iv_maxhi (acc_iv e (c_pool c t)) <= b.
Proof.
  intros I Hfu Hin Hheld Hbk Hk1.
  destruct (helds_upd e L (c_pool c) t (c_pool c t) NDL Hin) as (rest & P1 & _).
  assert (P : Permutation (cov e (c_trace c) ++ helds e L (c_pool c))
                          ((b, k) :: cov e (c_trace c) ++ acc_iv e (c_pool c t) ++ rest)).
  { rewrite P1, Hheld, <- !app_assoc.
    transitivity (cov e (c_trace c) ++ (b, k) :: acc_iv e (c_pool c t) ++ rest).
    - apply Permutation_app_head. symmetry. apply Permutation_middle.
    - symmetry. apply Permutation_middle. }
  pose proof (below_top _ _ _ _ _ (tiling_perm _ _ _ _ P (a_til c I Hfu)) Hbk) as Hb.
  rewrite !iv_maxhi_app in Hb. lia.
Qed.

(** what a direct pull returns *)
Definition top_res (q : req) (b : N) (rs : list run) (cnt : N) : res :=
  match q_mode q with
  | MSingle v => one_res (if reports_idx v then rs else map strip_idx rs)
  | MChunk k | MBuf k => chunk_res b rs cnt (N.min k cnt)
  end.

(** the thread is left idle, with the buffer it had (refilled, when the pull is that of a buffered iterator) *)
Lemma deliver_top_eq ts q b rs cnt :
  exists ts' d, deliver_top e ts q b rs cnt = (ts', (top_res q b rs cnt, d))
    /\ t_pc ts' = PIdle /\ t_acc ts' = t_acc ts /\ t_todo ts' = t_todo ts
    /\ option_map bf_c (t_buf ts') = option_map bf_c (t_buf ts).
Proof.
  assert (Hidle : forall (r : res) (d : list drops), exists ts' d', (set_pc ts PIdle, (r, d)) = (ts', (r, d'))
    /\ t_pc ts' = PIdle /\ t_acc ts' = t_acc ts /\ t_todo ts' = t_todo ts
    /\ option_map bf_c (t_buf ts') = option_map bf_c (t_buf ts)).
  { eexists _, _. repeat split. }
  unfold deliver_top, top_res. destruct (q_mode q) as [v|k|k]; try apply Hidle.
  rewrite Hk. destruct (t_buf ts) as [bf|]; [|apply Hidle].
  destruct (write_slots (bf_slots bf) (runs_vals rs)) as [sl stale].
  eexists _, _. repeat split.
Qed.

Lemma top_res_plain q b rs cnt :
  is_panic (top_res q b rs cnt) = false /\ len_answer (top_res q b rs cnt) = None /\ (rs <> [] -> is_end (top_res q b rs cnt) = false).
Proof.
  unfold top_res. destruct (q_mode q) as [v|k|k]; [|repeat split; reflexivity..].
  destruct (reports_idx v), rs as [|r0 rs0]; repeat split; intros H; contradiction H; reflexivity.
Qed.

(** it delivers (to the caller, or in the chunk it returns) as many elements as it took *)
Lemma top_res_total q b rs cnt :
  total_cnt rs = cnt -> (forall v, q_mode q = MSingle v -> exists r0, rs = [r0]) ->
  iv_total (res_cover e (top_res q b rs cnt)) = cnt.
Proof.
  unfold top_res. intros Ht H1. destruct (q_mode q) as [v|k|k].
  2, 3: unfold chunk_res; cbn [res_cover]; rewrite iv_total_app, iv_total_runs, total_cnt_take; cbn [iv_total snd]; lia.
  destruct (H1 v eq_refl) as (r0 & ->). cbn [total_cnt] in Ht.
  destruct (reports_idx v); cbn [map one_res res_cover res_taken iv_total run_iv strip_idx mk_run r_cnt snd]; lia.
Qed.

(** when it took the positions [b, b + cnt) *)
Lemma top_res_run q b cnt :
  b < e_len e -> b + cnt <= e_len e ->
  forallb (run_idx_ok e) (res_runs (top_res q b [mk_run (Some b) (val_of e b) cnt] cnt)) = true /\
  exists took, took <= cnt /\
    res_cover e (top_res q b [mk_run (Some b) (val_of e b) cnt] cnt) = (if took =? 0 then [] else [(b, took)]) ++ [(b + took, cnt - took)].
Proof.
  intros Hb Hcl. unfold top_res. destruct (q_mode q) as [v|k|k].
  2, 3: split; [apply runs_take_idx_ok, idx_ok_one; intros _; exact Hcl|];
        exists (N.min k cnt); split; [lia|apply cover_chunk; lia].
  (* a single element, with or without its index: nothing is left of the chunk *)
  split.
  - destruct (reports_idx v); cbn [map one_res res_runs forallb]; rewrite andb_true_r;
      (apply run_idx_ok_at; [reflexivity|intros _; exact Hcl]).
  - exists 0. split; [lia|].
    destruct (reports_idx v); cbn [map one_res res_cover res_taken]; rewrite ?run_iv_strip, run_iv_at;
      cbn [N.eqb app]; f_equal; f_equal; lia.
Qed.

(** the publishing step of every wrapped iterator: the pull reports the end when it took nothing, and
    returns what it took otherwise *)
Lemma pub_step c t q b g :
  IInvA c -> t_pc (c_pool c t) = PPub q b g -> s_y (c_sh c) + pub_incr q < W ->
  b = s_y (c_sh c) /\ wf_reqI q /\
  step e c t = finish e c t (with_y (c_sh c) (b + q_n q)) (c_pool c t) (LAtom t SY AAdd (q_n q) b (o_pub q)) q
                 (match g with [] => Ok PREnd | _ => Ok (PRGot b (runs_of b (rev g)) (N.of_nat (length g))) end).
Proof.
  intros I Hpc Hw.
  destruct (a_ipc c t _ I Hpc) as (Hq & _ & _ & Hg1).
  pose proof (p_crit _ _ _ _ _ (a_prot c I) t _ _ (f_equal in_crit Hpc) (f_equal ticket Hpc)) as Hb.
  split; [exact Hb|]. split; [exact Hq|].
  rewrite (istep_pub e c t q b g Hpc), wadd_nowrap, (pub_incr_n q Hq), rev_length by assumption.
  subst b. rewrite N.eqb_refl.
  destruct g as [|g0 g']; cbn [rev].
  - destruct (q_mode q) as [v| |]; [discriminate (Hg1 v eq_refl)|reflexivity..].
  - destruct (rev g' ++ [g0]) eqn:Er; [destruct (rev g'); discriminate Er|]. destruct (q_mode q); reflexivity.
Qed.

Lemma pub_run p b (g : list N) : g <> [] -> rev g = ascN p (length g) ->
  runs_of b (rev g) = [mk_run (Some b) (val_of e p) (N.of_nat (length g))].
Proof.
  intros Hg ->. destruct g as [|g0 g']; [contradiction|]. cbn [length]. rewrite runs_of_asc, val_of_iter. reflexivity.
Qed.

(** when the wrapped iterator is fused, what a pull took is the interval of positions that begins at its
    ticket; it is shorter than the reservation only at the end of the source *)
Lemma pub_fused c t q b g :
  IInvA c -> fused e -> t_pc (c_pool c t) = PPub q b g -> g <> [] ->
  runs_of b (rev g) = [mk_run (Some b) (val_of e b) (N.of_nat (length g))] /\
  s_cur (c_sh c) = b + N.of_nat (length g) /\ b < e_len e /\
  (N.of_nat (length g) < q_n q -> b + N.of_nat (length g) = e_len e).
Proof.
  intros I Hfu Hpc Hgne.
  destruct (a_ipc c t _ I Hpc) as [Hq _].
  pose proof (p_cur _ _ _ _ _ (a_prot c I)) as Hcl.
  pose proof (a_protF c I Hfu) as PF.
  destruct (p_got _ _ _ _ _ PF t _ _ (f_equal in_crit Hpc) (f_equal ticket Hpc)) as [Hasc Hcur]. unfold pcs_of in Hasc, Hcur. rewrite Hpc in Hasc, Hcur.
  pose proof (p_pub _ _ _ _ _ PF t q b g Hpc) as Hfull. rewrite (pub_incr_n q Hq) in Hfull.
  assert (Hc : s_cur (c_sh c) = b + N.of_nat (length g)) by (destruct Hcur as [H|[H _]]; [exact H|contradiction]).
  assert (H1 : 1 <= N.of_nat (length g)) by (destruct g; [contradiction|cbn [length]; lia]).
  split; [exact (pub_run b b g Hgne Hasc)|]. lia.
Qed.

(** what the publishing step of every wrapped iterator delivers: the positions [p, p + cnt) the wrapped
    iterator yielded to this pull, under the index [b] of its ticket *)
Lemma pub_gen c t q b g :
  IInvA c -> t_pc (c_pool c t) = PPub q b g -> s_y (c_sh c) + pub_incr q < W ->
  b = s_y (c_sh c) /\ wf_reqI q /\
  ((g = [] /\
    step e c t = finish e c t (with_y (c_sh c) (b + q_n q)) (c_pool c t) (LAtom t SY AAdd (q_n q) b (o_pub q)) q (Ok PREnd))
   \/
   (exists cnt p, cnt = N.of_nat (length g) /\ 1 <= cnt /\ cnt <= q_n q /\ p + cnt = s_cur (c_sh c) /\ p < e_len e /\
      rev g = ascN p (length g) /\ (forall v, q_mode q = MSingle v -> cnt = 1) /\
      step e c t = finish e c t (with_y (c_sh c) (b + q_n q)) (c_pool c t) (LAtom t SY AAdd (q_n q) b (o_pub q)) q
                          (Ok (PRGot b [mk_run (Some b) (val_of e p) cnt] cnt)))).
Proof.
  intros I Hpc Hw.
  destruct (pub_step c t q b g I Hpc Hw) as (Hb & Hq & Est).
  destruct (a_ipc c t _ I Hpc) as (_ & _ & Hgn & Hg1).
  pose proof (p_gotv _ _ _ _ _ (a_prot c I) t (f_equal in_crit Hpc)) as [Hasc Hle]. unfold pcs_of in Hasc, Hle. rewrite Hpc in Hasc, Hle. cbn [got_of] in Hasc, Hle.
  pose proof (p_cur _ _ _ _ _ (a_prot c I)) as Hcl.
  split; [exact Hb|]. split; [exact Hq|].
  destruct g as [|g0 g']; [left; split; [reflexivity|exact Est]|right].
  exists (N.of_nat (length (g0 :: g'))), (s_cur (c_sh c) - N.of_nat (length (g0 :: g'))).
  repeat split; auto; try (cbn [length] in *; lia).
  - intros v Mv. rewrite (Hg1 v Mv). reflexivity.
  - rewrite Est, <- (pub_run _ b (g0 :: g') ltac:(discriminate) Hasc). reflexivity.
Qed.

Lemma iA_got c t q g l :
  IInvA c -> In t L -> t_pc (c_pool c t) = PPub q (s_y (c_sh c)) g -> g <> [] ->
  IInvA (finish e c t (with_y (c_sh c) (s_y (c_sh c) + q_n q)) (c_pool c t) l q
           (Ok (PRGot (s_y (c_sh c)) (runs_of (s_y (c_sh c)) (rev g)) (N.of_nat (length g))))).
Proof.
  intros I Hin Hpc Hgne.
  destruct (a_ipc c t _ I Hpc) as (Hq & Hacc & Hgn & Hg1).
  pose proof (fun Hfu => pub_fused c t q _ g I Hfu Hpc Hgne) as HF. pose proof (p_cur _ _ _ _ _ (a_prot c I)) as Hcl.
  set (b := s_y (c_sh c)) in *. set (rs := runs_of b (rev g)) in *. set (cnt := N.of_nat (length g)) in *.
  assert (Hk1 : 1 <= cnt) by (unfold cnt; destruct g; [contradiction|cbn [length]; lia]).
  assert (Hrst : total_cnt rs = cnt) by (unfold rs; rewrite total_cnt_runs_of, rev_length; reflexivity).
  assert (HP : forall x, ticket x = None ->
            ProtA (e_len e) (fused e) (s_c (c_sh c)) (b + q_n q) (s_cur (c_sh c)) (upd (pcs_of c) t x)).
  { intros x Tx. rewrite <- (pub_incr_n q Hq). exact (protA_publish _ _ _ _ _ _ t q b g x Hpc Tx (a_protA c I)). }
  assert (Hev : crit_iv (PPub q b g) = [(b, cnt)]) by reflexivity.
  unfold finish, deliver. destruct (q_ctx q) as [|lk crash] eqn:Ctx.
  - (* directly *)
    specialize (Hacc eq_refl). cbn [set_pc t_acc] in Hacc.
    destruct (deliver_top_eq (c_pool c t) q b rs cnt) as (ts' & d & -> & Hp' & Ha' & Ht' & Hbk).
    destruct (top_res_plain q b rs cnt) as (Hnp & _).
    apply (iA_return c t (PPub q b g)); try assumption; try discriminate.
    + rewrite Ha'. exact Hacc.
    + apply HP. reflexivity.
    + intros Hfu h T. destruct (HF Hfu) as (Hrs & Hc & P1 & P7). rewrite Hnp, Hrs.
      destruct (top_res_run q b cnt P1) as (_ & took & Htk & ->); [lia|].
      unfold acc_iv in T. rewrite Hacc in T. apply tiling_split_form; assumption.
    + rewrite top_res_total; [unfold acc_iv; rewrite Hacc; cbn; lia|exact Hrst|].
      intros v Mv. specialize (Hg1 v Mv). destruct g as [|x [|y g']]; try discriminate Hg1.
      eexists. reflexivity.
  - (* inside a loop: the closure is invoked *)
    pose proof (a_call c I t) as Hcall. unfold icall_ok, is_idle in Hcall. rewrite Hpc in Hcall.
    destruct Hcall as (o & older & Hpend & Hres). cbn [entry_of req_of] in Hres.
    pose proof (call_op_iter e Hk _ _ _ Hres) as Ho. cbn beta iota in Ho. rewrite Ctx in Ho. destruct Ho as (cc & -> & _).
    unfold deliver_loop.
    pose proof (loop_invoke_shape lk crash (total_cnt (t_acc (c_pool c t))) rs cnt (runs_of_idx _ _)) as Hsh.
    destruct (loop_invoke lk crash (total_cnt (t_acc (c_pool c t))) rs cnt) as [inv pan] eqn:Eli. cbn [fst] in Hsh.
    (* when the wrapped iterator is fused: on the one run, or on a prefix of it *)
    assert (Hinv : fused e -> forallb (run_idx_ok e) inv = true /\
              match pan with
              | None => map (run_iv e) inv = [(b, cnt)]
              | Some used => 1 <= used /\ used <= cnt /\ map (run_iv e) inv = [(b, used)]
              end).
    { intros Hfu. destruct (HF Hfu) as (Hrs & Hc & P1 & _).
      destruct (loop_invoke_cases e lk crash (total_cnt (t_acc (c_pool c t))) b cnt) as (inv2 & pan2 & E2 & Hi1 & _ & Hi3); [lia|].
      rewrite Hrs, E2 in Eli. injection Eli as <- <-. exact (conj Hi1 Hi3). }
    destruct pan as [used|]; cbn [ret_ev].
    + (* the closure panics: the loop returns *)
      apply (iA_return c t (PPub q b g)); try assumption; try reflexivity; try discriminate.
      * apply HP. reflexivity.
      * intros Hfu h T. destruct (Hinv Hfu) as (_ & Hu1 & Hu2 & Hi0).
        apply tiling_unclean in T. rewrite Hev in T. replace cnt with (used + (cnt - used)) in T by lia.
        apply tiling_cut in T. apply (tiling_perm _ _ _ _ (perm_swap _ _ _)), tiling_drop_head in T.
        refine (tiling_perm _ _ _ _ _ T). cbn [res_cover res_taken].
        rewrite rev_app_distr, rev_involutive, map_app, Hi0, <- app_assoc, (acc_iv_rev (c_pool c t)). apply Permutation_middle.
    + (* the loop goes on *)
      destruct (a_wf c I t) as (_ & Hops & Hbuf).
      assert (Hshape : forall l0 c0 cr0, Loop lk cc crash = Loop l0 c0 cr0 ->
                forallb (shape_ok l0) (rev inv ++ t_acc (c_pool c t)) = true).
      { intros l0 c0 cr0 Eo. injection Eo as <- <- <-. pose proof (a_shape c I t) as Hs. unfold ishape_ok in Hs. rewrite Hpend in Hs.
        rewrite forallb_app, forallb_rev, Hsh. exact (Hs lk cc crash eq_refl). }
      apply iA_commit with (newcov := []); try assumption.
      * rewrite Hpc. split; discriminate.
      * reflexivity.
      * split; [exact Hq|]. rewrite Ctx. discriminate.
      * exists (Loop lk cc crash), older. split; [exact Hpend|]. exact (call_res_buf e _ _ _ eq_refl _ Hres).
      * exact (a_buf c I t).
      * intros Hfu. destruct (Hinv Hfu) as (Hi1 & Hi0). destruct (HF Hfu) as (_ & Hc & _).
        destruct (top_below c t b cnt I Hfu Hin) as [Hbc Hba]; [rewrite held_eq, Hpc; reflexivity|lia|exact Hk1|].
        pose proof (a_acc c I Hfu t) as Ha. unfold iacc_ok in *. cbn [app]. rewrite Hpend in *.
        destruct Ha as (Ha1 & _ & Ha3 & Ha4). unfold acc_iv. cbn [t_acc].
        rewrite forallb_app, forallb_rev, map_app, map_rev, Hi0, Hi1. cbn [rev app all_above forallb fst].
        split; [exact Ha1|]. split; [exact Hshape|].
        split; [apply increasing_snoc; [exact Ha3|]; rewrite <- (iv_maxhi_perm _ _ (Permutation_rev _)); exact Hba|].
        apply andb_true_iff. split; [|exact Ha4]. apply orb_true_iff. right. apply N.leb_le.
        pose proof (cov_suffix_maxhi e _ _ (pend_suffix _ _ _ _ Hpend)). lia.
      * unfold ishape_ok. cbn [app]. rewrite Hpend. exact Hshape.
      * apply HP. reflexivity.
      * intros Hfu h T. destruct (Hinv Hfu) as (_ & Hi0).
        rewrite held_eq, Hpc in T. refine (tiling_perm _ _ _ _ _ T).
        rewrite held_eq. unfold acc_iv. cbn [t_acc]. rewrite map_app, map_rev, Hi0, app_nil_r.
        exact (perm_swap_front _ [(b, cnt)] h).
      * rewrite !held_eq, Hpc, Hev, !iv_total_app. unfold acc_iv. cbn [t_acc t_pc crit_iv ticket iv_total snd with_y s_cur].
        rewrite map_app, iv_total_app, map_rev, <- (iv_total_perm _ _ (Permutation_rev _)), (loop_invoke_total _ _ _ _ _ _ Eli). lia.
Qed.

Lemma iA_pub c t q b g :
  IInvA c -> In t L -> t_pc (c_pool c t) = PPub q b g ->
  s_y (c_sh c) + pub_incr q < W ->
  IInvA (step e c t).
Proof.
  intros I Hin Hpc Hw.
  destruct (pub_step c t q b g I Hpc Hw) as (-> & Hq & ->).
  destruct g as [|g0 g']; [|apply iA_got; try assumption; discriminate].
  destruct (a_ipc c t _ I Hpc) as (_ & Hacc & _).
  apply (iA_finish_end c t (PPub q (s_y (c_sh c)) [])); try assumption; try reflexivity; [discriminate|].
  rewrite <- (pub_incr_n q Hq).
  exact (protA_publish _ _ _ _ _ _ t q _ [] PIdle Hpc eq_refl (a_protA c I)).
Qed.

Lemma pub_eq c t q b g :
  IInvA c -> fused e -> t_pc (c_pool c t) = PPub q b g -> s_y (c_sh c) + pub_incr q < W ->
  b = s_y (c_sh c) /\ wf_reqI q /\
  ((g = [] /\ s_cur (c_sh c) = e_len e /\
    step e c t = finish e c t (with_y (c_sh c) (b + q_n q)) (c_pool c t) (LAtom t SY AAdd (q_n q) b (o_pub q)) q (Ok PREnd))
   \/
   (exists cnt, cnt = N.of_nat (length g) /\ 1 <= cnt /\ cnt <= q_n q /\ b + cnt = s_cur (c_sh c) /\ b < e_len e /\
      (cnt < q_n q -> b + cnt = e_len e) /\ (forall v, q_mode q = MSingle v -> cnt = 1) /\
      step e c t = finish e c t (with_y (c_sh c) (b + q_n q)) (c_pool c t) (LAtom t SY AAdd (q_n q) b (o_pub q)) q
                          (Ok (PRGot b [mk_run (Some b) (val_of e b) cnt] cnt)))).
Proof.
  intros I Hfu Hpc Hw.
  destruct (pub_step c t q b g I Hpc Hw) as (Hb & Hq & ->).
  destruct (a_ipc c t _ I Hpc) as (_ & _ & Hgn & Hg1).
  split; [exact Hb|]. split; [exact Hq|].
  destruct g as [|g0 g']; [left|right].
  - split; [reflexivity|]. split; [|reflexivity].
    destruct (p_pub _ _ _ _ _ (a_protF c I Hfu) t q b [] Hpc) as [H|H]; [|exact H].
    rewrite (pub_incr_n q Hq) in H. destruct Hq. cbn [length] in H. lia.
  - destruct (pub_fused c t q b (g0 :: g') I Hfu Hpc) as (-> & Hc & Hbl & Hsh); [discriminate|].
    exists (N.of_nat (length (g0 :: g'))). repeat split; auto; try (cbn [length]; lia).
    intros v Mv. rewrite (Hg1 v Mv). reflexivity.
Qed.

Definition istep_nowrap (c : cfg) (t : tid) : Prop :=
  match t_pc (c_pool c t) with
  | PRes q => s_c (c_sh c) + pub_incr q < W
  | PPub q _ _ => s_y (c_sh c) + pub_incr q < W
  | _ => True
  end.

Lemma iA_step c t : IInvA c -> In t L -> istep_nowrap c t -> IInvA (step e c t).
Proof.
  intros I Hin Hw. unfold istep_nowrap in Hw.
  destruct (t_pc (c_pool c t)) as [|q|q b|q b|q b|q b g|q b g|q b g|q b g| |hm|hm] eqn:Hpc.
  - destruct (t_todo (c_pool c t)) as [|o rest] eqn:Htodo.
    + rewrite step_idle_nil by assumption. exact I.
    + rewrite (step_idle_call e c t o rest) by assumption. apply iA_call; assumption.
  - exact (iA_res c t q I Hin Hpc Hw).
  - exact (iA_chkf c t q b I Hin Hpc).
  - exact (iA_ldy c t q b I Hin Hpc).
  - exact (iA_chkt c t q b I Hin Hpc).
  - exact (iA_src c t q b g I Hin Hpc).
  - exact (iA_setf c t q b g I Hin Hpc).
  - exact (iA_pub c t q b g I Hin Hpc Hw).
  - exact (iA_unw c t q b g I Hin Hpc).
  - exact (iA_skip c t I Hin Hpc).
  - exact (iA_len c t hm I Hin Hpc).
  - exact (iA_len2 c t hm I Hin Hpc).
Qed.

Lemma istep_labels c t : nowrap (c_labels (step e c t)) -> istep_nowrap c t.
Proof.
  unfold istep_nowrap.
  destruct (t_pc (c_pool c t)) as [|q|q b|q b|q b|q b got|q b got|q b got|q b got| |hm|hm] eqn:Hpc; auto.
  - rewrite (istep_res e Hk c t q Hpc). intros H. inversion H as [|? ? H1 H2]. exact H1.
  - rewrite (istep_pub e c t q b got Hpc), finish_labels. intros H. inversion H as [|? ? H1 H2]. exact H1.
Qed.

Lemma iA_init progs : (forall t, Forall wf_op (progs t)) -> IInvA (init progs).
Proof.
  intros Hp. destruct (protA_init (e_len e) (fused e)) as [P PF].
  assert (Hh : helds e L (fun t => init_ts (progs t)) = []) by (apply gather_nil; reflexivity).
  split; cbn [init c_pool].
  - repeat split. apply Hp.
  - reflexivity.
  - reflexivity.
  - clear. induction L as [|a l IH]; [reflexivity|exact IH].
  - exact P.
  - discriminate.
  - intros t. exact I0.
  - reflexivity.
  - intros _. rewrite Hh. reflexivity.
  - intros Hfu. split; cbn [init c_pool]; [exact (PF Hfu)|rewrite Hh; apply tiling_empty|intros t; exact I0].
Qed.

End IterA.
