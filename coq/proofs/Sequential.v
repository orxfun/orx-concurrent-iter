(** * C04, last sentence: a single-threaded sequence of operations yields exactly what the wrapped
      sequential iterator would yield, in the same order.

    When only one thread ever runs, the trace is an alternation of calls and returns; every point between
    two operations is quiescent.  The prefix clause of C04 (at a quiescent point the delivered positions
    are a gap-free prefix) and its order clause (a pull that starts after another one returned receives
    larger positions; the runs of one result are increasing) then say: the intervals delivered by the
    successive return events, read in the order of the events, are adjacent and start at 0 --
    [0, a1), [a1, a2), ... -- i.e. the positions handed out are 0, 1, 2, ... in this order.  (A chunk
    delivers all its elements when it is returned, taken by the caller or not: [cov].) *)
From Coq Require Import Lia ZArith List.
From OCI Require Import Machine Checkers.
From OCI.proofs Require Import Base Trace ArithOk InvKnown ChkKnown Progress IterBase ChkIter ChkAll AfterNone RunC16.
Import ListNotations.
Open Scope N_scope.

(** the intervals of [l], in the order of the list, are adjacent and start at [d]: [d, d1), [d1, d2), ...
    (an empty interval -- the untaken rest of a chunk that was taken whole -- is anywhere) *)
Fixpoint adjacent_from (d : N) (l : list iv) : bool :=
  match l with
  | [] => true
  | a :: tl => ((snd a =? 0) || (fst a =? d)) && adjacent_from (d + snd a) tl
  end.

Definition positions (l : list iv) : list N :=
  flat_map (fun a => run_vals (fst a) (N.to_nat (snd a))) l.

(** the deliveries of a trace (latest event first, as the machine accumulates it) in the order in which
    they happened: the intervals of the oldest return event first, those of one event in their order *)
Definition cov_in_order (e : env) (tr : list event) : list iv := cov e (rev tr).

Lemma adjacent_from_app d l1 l2 :
  adjacent_from d (l1 ++ l2) = adjacent_from d l1 && adjacent_from (d + iv_total l1) l2.
Proof.
  revert d. induction l1 as [|a l1 IH]; intros d; cbn [app adjacent_from iv_total].
  - rewrite N.add_0_r. reflexivity.
  - rewrite IH, N.add_assoc, andb_assoc. reflexivity.
Qed.

Lemma run_vals_app v a b : run_vals v (a + b) = run_vals v a ++ run_vals (v + N.of_nat a) b.
Proof.
  revert v. induction a as [|a IH]; intros v; cbn [plus run_vals app].
  - rewrite N.add_0_r. reflexivity.
  - rewrite IH. do 3 f_equal. lia.
Qed.

Lemma adjacent_positions l : forall d, adjacent_from d l = true ->
  positions l = run_vals d (N.to_nat (iv_total l)).
Proof.
  induction l as [|a l IH]; intros d H; cbn [adjacent_from positions flat_map iv_total] in *; [reflexivity|].
  rewrite andb_true_iff, orb_true_iff, !N.eqb_eq in H. destruct H as [Ha Hl]. fold (positions l).
  rewrite (IH _ Hl), N2Nat.inj_add, run_vals_app, N2Nat.id.
  destruct Ha as [->| ->]; [rewrite N.add_0_r|]; reflexivity.
Qed.

(** increasing intervals above [d] reach at least [d] plus their total size, and exactly that only when they
    are adjacent from [d] on *)
Lemma increasing_adjacent l : forall d, increasing l = true -> all_above d l = true ->
  d + iv_total l <= N.max d (iv_maxhi l) /\
  (d + iv_total l = N.max d (iv_maxhi l) -> adjacent_from d l = true).
Proof.
  induction l as [|a l IH]; intros d Hi Ha; cbn [increasing all_above forallb iv_total iv_maxhi adjacent_from] in *.
  { split; [lia|reflexivity]. }
  apply andb_true_iff in Hi. destruct Hi as [Hi1 Hi2]. apply andb_true_iff in Ha. destruct Ha as [Ha1 Ha2].
  destruct (snd a =? 0) eqn:Hz; [apply N.eqb_eq in Hz|apply N.eqb_neq in Hz].
  - destruct (IH d Hi2 Ha2) as [Hr Hx]. rewrite Hz, N.add_0_r. split; [lia|]. intros E. apply Hx. lia.
  - apply N.leb_le in Ha1. destruct (IH (iv_hi a) Hi2 Hi1) as [Hr Hx]. unfold iv_hi in *. split; [lia|]. intros E.
    assert (fst a = d) as <- by lia. rewrite N.eqb_refl. apply Hx. lia.
Qed.

Lemma iv_total_cov_rev e tr : iv_total (cov e (rev tr)) = iv_total (cov e tr).
Proof.
  induction tr as [|ev tr IH]; [reflexivity|]. cbn [rev]. rewrite cov_app, iv_total_app.
  destruct ev; cbn [cov]; rewrite ?iv_total_app; cbn [iv_total]; lia.
Qed.

(** [tr] is the trace of a run in which only thread [t0] runs: calls and returns of [t0] alternate; it
    leaves [t0] idle (between two operations) or not *)
Fixpoint alternate (t0 : tid) (idle : bool) (tr : list event) : Prop :=
  match tr with
  | [] => idle = true
  | ECall u _ :: tl => u = t0 /\ idle = false /\ alternate t0 true tl
  | ERet u _ _ :: tl => u = t0 /\ idle = true /\ alternate t0 false tl
  | EFinal _ _ _ :: _ => False
  end.

Lemma alternate_pending t0 tr : forall idle, alternate t0 idle tr -> n_pending tr = (if idle then 0 else 1)%Z.
Proof.
  induction tr as [|[u o|u r d|f r d] tr IH]; cbn [n_pending]; intros idle H.
  - rewrite H. reflexivity.
  - destruct H as (_ & -> & H). rewrite (IH _ H). reflexivity.
  - destruct H as (_ & -> & H). rewrite (IH _ H). reflexivity.
  - contradiction.
Qed.

Definition Solo (t0 : tid) (c : cfg) : Prop := alternate t0 (is_idle (c_pool c t0)) (c_trace c).

(** the events of a step keep the alternation ([Trace.evs_pc]) *)
Lemma alternate_evs t ts ts' evs tr : evs_pc t (t_pc ts) (t_pc ts') evs ->
  alternate t (is_idle ts) tr -> alternate t (is_idle ts') (evs ++ tr).
Proof.
  unfold is_idle.
  destruct evs as [|[u o|u r d|f r d] [|[v o'|v r' d'|f' r' d'] [|ev evs]]]; cbn [evs_pc app alternate]; try contradiction.
  - intros [H1 H2] H. destruct (t_pc ts), (t_pc ts'); try exact H; try discriminate (H1 eq_refl); discriminate (H2 eq_refl).
  - intros (-> & -> & Hp) H. destruct (t_pc ts'); [contradiction Hp; reflexivity|auto..].
  - intros (-> & Hp & ->) H. destruct (t_pc ts); [contradiction Hp; reflexivity|auto..].
  - intros (-> & -> & -> & ->) H. auto.
Qed.

Lemma solo_step e t c : Solo t c -> Solo t (step e c t).
Proof.
  intros H. destruct (step_commit_pc e c t) as [->|(ts & l & evs & _ & He & ->)]; [exact H|].
  unfold Solo. cbn [commit c_pool]. rewrite upd_same. exact (alternate_evs _ _ _ _ _ He H).
Qed.

Lemma solo_exec e t0 sched : Forall (fun t => t = t0) sched -> forall c, Solo t0 c -> Solo t0 (exec e c sched).
Proof.
  induction 1 as [|t sched -> _ IH]; intros c Hc; [exact Hc|].
  rewrite exec_cons. apply IH. apply solo_step. exact Hc.
Qed.

Lemma prefix_quiescent e tr : chk_C04_prefix e tr = true -> n_pending tr = 0%Z ->
  iv_total (cov e tr) = iv_maxhi (cov e tr).
Proof.
  destruct tr as [|ev tl]; [reflexivity|]. intros H Hq.
  apply andb_true_iff in H. destruct H as [H _]. rewrite Hq in H. apply N.eqb_eq. exact H.
Qed.

Lemma prefix_tail e ev tr : chk_C04_prefix e (ev :: tr) = true -> chk_C04_prefix e tr = true.
Proof. intros H. apply andb_true_iff in H. apply H. Qed.

(** every return event delivers intervals that are adjacent, and start where the deliveries before it end: the
    run is quiescent before the call and after the return, so both times the deliveries are a gap-free prefix,
    and what the return delivers is increasing and lies above the earlier prefix *)
Lemma solo_adjacent e t0 tr : forall idle, alternate t0 idle tr ->
  chk_C04_order e tr = true -> chk_C04_prefix e tr = true -> adjacent_from 0 (cov_in_order e tr) = true.
Proof.
  unfold cov_in_order, chk_C04_order. induction tr as [|ev tr IH]; intros idle Hs Ho Hp; [reflexivity|].
  cbn [rev]. rewrite cov_app, adjacent_from_app, iv_total_cov_rev, N.add_0_l.
  pose proof (prefix_tail _ _ _ Hp) as Hp'. pose proof (alternate_pending t0 _ _ Hs) as Hq.
  destruct ev as [u o|u r d|f r d]; cbn [alternate] in Hs; [|destruct Hs as (-> & -> & Hs)|contradiction].
  { destruct Hs as (_ & _ & Hs). rewrite (IH _ Hs Ho Hp'). reflexivity. }
  rewrite all_rets_ret in Ho. apply andb_true_iff in Ho. destruct Ho as [Hev Ho].
  rewrite (IH _ Hs Ho Hp'). cbn [cov]. rewrite app_nil_r.
  destruct tr as [|[u o|u r' d'|f r' d'] older]; cbn [alternate] in Hs;
    [discriminate Hs| |destruct Hs as (_ & Hs & _); discriminate Hs|contradiction].
  destruct Hs as (-> & _ & Hs).
  unfold ev_C04 in Hev. cbn [split_call] in Hev. rewrite Nat.eqb_refl, !andb_true_iff in Hev.
  destruct Hev as [[Hinc _] Hab].
  pose proof (prefix_quiescent e _ Hp Hq) as Hnow.
  pose proof (prefix_quiescent e older (prefix_tail _ _ _ Hp') (alternate_pending _ _ _ Hs)) as Hold.
  cbn [cov] in *. rewrite iv_total_app, iv_maxhi_app in Hnow. rewrite <- Hold in Hab.
  apply (increasing_adjacent _ _ Hinc Hab). lia.
Qed.

Lemma src_C04 e : src_env e -> forall progs, wf_progs progs -> forall sched,
  nowrap (c_labels (exec e (init progs) sched)) ->
  check_prop 4 e (c_trace (exec e (init progs) sched)) (c_labels (exec e (init progs) sched)) = true.
Proof. intros [H|H] progs Hp sched Hw; [apply known_C04|apply iter_C04_any]; assumption. Qed.

(** every source kind (a wrapped iterator fused or not), every program of one thread, every number of its
    steps: as long as nothing has panicked, the delivered intervals, in the order of the return events, are
    adjacent and start at 0 *)
Theorem solo_sequential : forall e, src_env e -> forall progs, wf_progs progs ->
  forall t0 sched, Forall (fun t => t = t0) sched ->
  nowrap (c_labels (exec e (init progs) sched)) ->
  has_panic (c_trace (exec e (init progs) sched)) = false ->
  adjacent_from 0 (cov_in_order e (c_trace (exec e (init progs) sched))) = true.
Proof.
  intros e Hsrc progs Hp t0 sched Hsched Hw Hnp.
  pose proof (src_C04 e Hsrc progs Hp sched Hw) as H4. cbn [check_prop] in H4. rewrite Hnp in H4.
  apply andb_true_iff in H4. destruct H4 as [H4 Hpre]. apply andb_true_iff in H4. destruct H4 as [_ Hord].
  apply (solo_adjacent e t0 _ _ (solo_exec e t0 sched Hsched (init progs) eq_refl)); assumption.
Qed.

(** the same, position by position: the positions handed out are 0, 1, 2, ..., m - 1 in this order, where m
    is the number of positions delivered *)
Theorem solo_sequential_positions : forall e, src_env e -> forall progs, wf_progs progs ->
  forall t0 sched, Forall (fun t => t = t0) sched ->
  nowrap (c_labels (exec e (init progs) sched)) ->
  has_panic (c_trace (exec e (init progs) sched)) = false ->
  positions (cov_in_order e (c_trace (exec e (init progs) sched))) =
  run_vals 0 (N.to_nat (iv_total (cov e (c_trace (exec e (init progs) sched))))).
Proof.
  intros e Hsrc progs Hp t0 sched Hsched Hw Hnp.
  rewrite (adjacent_positions _ 0 (solo_sequential e Hsrc progs Hp t0 sched Hsched Hw Hnp)).
  unfold cov_in_order. rewrite iv_total_cov_rev. reflexivity.
Qed.

(** no operation of the programs can panic: no closure is told to panic, buffered pulls have a buffered
    iterator, no chunk size of a loop or of a buffered iterator is zero, the wrapped iterator does not panic *)
Lemma src_no_panic e : src_env e -> e_crash e = None -> forall progs, wf_progs progs -> plain_progs progs ->
  (forall t, Forall op_nz (progs t)) -> forall sched,
  nowrap (c_labels (exec e (init progs) sched)) ->
  has_panic (c_trace (exec e (init progs) sched)) = false.
Proof.
  intros [H|H] Hc progs Hp Hpl Hnz sched Hw; apply negb_true_iff;
    [apply known_C17_no_panic|apply iter_C17_no_panic]; assumption.
Qed.

Theorem solo_sequential_progs : forall e, src_env e -> e_crash e = None ->
  forall progs, wf_progs progs -> plain_progs progs -> (forall t, Forall op_nz (progs t)) ->
  forall t0 k,
  nowrap (c_labels (exec e (init progs) (repeat t0 k))) ->
  adjacent_from 0 (cov_in_order e (c_trace (exec e (init progs) (repeat t0 k)))) = true /\
  positions (cov_in_order e (c_trace (exec e (init progs) (repeat t0 k)))) =
  run_vals 0 (N.to_nat (iv_total (cov e (c_trace (exec e (init progs) (repeat t0 k)))))).
Proof.
  intros e Hsrc Hc progs Hp Hpl Hnz t0 k Hw.
  pose proof (src_no_panic e Hsrc Hc progs Hp Hpl Hnz _ Hw) as Hnp.
  assert (Hsched : Forall (fun t => t = t0) (repeat t0 k)).
  { apply Forall_forall. intros t Ht. apply repeat_spec in Ht. exact Ht. }
  split; [apply solo_sequential with (t0 := t0)|apply solo_sequential_positions with (t0 := t0)]; assumption.
Qed.
