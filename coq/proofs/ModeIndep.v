(** * C17: the run of the machine is the same in the two build modes.

    The field [e_mode] of the environment (overflow checks on / off) is read by [add_u] and [sub_u]
    only.  These occur in the index arithmetic of the known-size kinds ([k_get], [k_fetch_n],
    [k_buf_pull]) and in [into_seq_iter] of a range ([final_step]); the wrapper over an arbitrary
    iterator performs no checked arithmetic at all.  On every reachable state the additions and
    subtractions stay inside the machine word ([k_pull_spec], [k_fetch_n_spec] of ArithOk.v), so the
    two modes compute the same thing: the whole configuration reached by a schedule -- shared state,
    thread states, trace of calls and results, labels -- does not depend on the mode, and neither
    does the end of life of the iterator. *)
From Coq Require Import Lia List.
From OCI Require Import Machine Checkers.
From OCI.proofs Require Import ArithOk Trace InvKnown ChkKnown IterBase ChkIter ChkAll Adaptor.
Import ListNotations.
Open Scope N_scope.

Lemma src_env_mode e m : src_env e -> src_env (with_mode e m).
Proof. intros H. exact H. Qed.

(** a thread about to pull from a known-size source has a well-formed request (part of [KInv]) *)
Definition req_ok (e : env) (c : cfg) (t : tid) : Prop :=
  forall q, t_pc (c_pool c t) = PRes q -> is_known (e_kind e) = true -> wf_req q.

Lemma step_mode e m c t : wf_env e -> req_ok e c t -> step (with_mode e m) c t = step e c t.
Proof.
  intros He Hq. apply step_ext; try reflexivity.
  - intros q Hpc Hk. exact (k_pull_mode e m q _ He (Hq q Hpc Hk)).
  - intros _ _. exact (k_fetch_n_mode e m _ _ He).
Qed.

(** the wrapper over an arbitrary iterator performs no checked arithmetic: no hypothesis on the state *)
Lemma exec_mode_iter e m c sched : iter_env e -> exec (with_mode e m) c sched = exec e c sched.
Proof.
  intros [He K]. apply exec_ext. intros c' t. apply step_mode; [exact He|].
  intros q _ Hk. rewrite K in Hk. discriminate Hk.
Qed.

(** a known-size source: the invariant of the run gives the well-formed request *)
Lemma exec_mode_known e m progs sched : known_env e -> wf_progs progs ->
  nowrap (c_labels (exec e (init progs) sched)) ->
  exec (with_mode e m) (init progs) sched = exec e (init progs) sched.
Proof.
  intros Hke Hp. induction sched as [|t s IH] using rev_ind; intros Hnw; [reflexivity|].
  rewrite !exec_snoc in *. pose proof (step_labels_suffix _ _ _ Hnw) as Hnw'. rewrite (IH Hnw').
  apply step_mode; [apply Hke|]. intros q Hpc _.
  destruct (k_wf _ _ _ (known_inv e Hke progs Hp s Hnw') t) as (Hok & _).
  unfold kpc_ok in Hok. rewrite Hpc in Hok. apply Hok.
Qed.

Lemma final_mode e m c t f : wf_env e -> final_step (with_mode e m) c t f = final_step e c t f.
Proof.
  intros [Hl Hr]. unfold final_step. cbn [with_mode e_kind e_len e_start e_end e_mode].
  destruct f as [|k]; destruct (e_kind e); try reflexivity.
  (* a range: the start of the remainder lies inside the range *)
  rewrite !add_u_ok by lia. reflexivity.
Qed.

Theorem exec_mode_independent : forall e, src_env e -> forall progs, wf_progs progs -> forall sched,
  nowrap (c_labels (exec e (init progs) sched)) ->
  forall m, exec (with_mode e m) (init progs) sched = exec e (init progs) sched.
Proof.
  intros e [Hke|Hie] progs Hp sched Hnw m.
  - apply exec_mode_known; assumption.
  - apply exec_mode_iter; assumption.
Qed.

Print Assumptions exec_mode_independent.

Theorem final_mode_independent : forall e, src_env e -> forall progs, wf_progs progs -> forall sched,
  nowrap (c_labels (exec e (init progs) sched)) ->
  forall m t f, final_step (with_mode e m) (exec (with_mode e m) (init progs) sched) t f =
                final_step e (exec e (init progs) sched) t f.
Proof.
  intros e Hsrc progs Hp sched Hnw m t f.
  rewrite (exec_mode_independent e Hsrc progs Hp sched Hnw m).
  apply final_mode. destruct Hsrc as [(H & _)|(H & _)]; exact H.
Qed.

Print Assumptions final_mode_independent.
