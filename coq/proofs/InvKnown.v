(** * The known-size kinds (slice, vector, array, range): the inductive invariant of the machine.

    Every pull of these kinds is one step: the [fetch_add] on the position counter together with the
    local computation that follows it.  The invariant says that the intervals delivered so far --
    those in the trace and those a running [for_each]/[fold] loop has handed to its closure -- tile
    the prefix [0, min counter len) of the source.  A step of a thread starts an operation
    ([kinv_call]), lets its pending operation return ([kinv_ret]) or lets its loop go on (the last case
    of [kinv_pull]); each goes through [kinv_commit], which takes care of the other threads. *)
From Coq Require Import Lia ZArith Permutation.
From OCI Require Import Machine Checkers.
From OCI.proofs Require Import Base Trace ArithOk.
Open Scope N_scope.

Definition wf_op (o : op) : Prop :=
  match o with Chunk n _ => n < W | BufNew c => c < W | Loop _ c _ => c < W | _ => True end.

Definition wf_buf (ob : option bufst) : Prop :=
  match ob with Some bf => 0 < bf_c bf /\ bf_c bf < W | None => True end.

Definition is_idle (ts : tstate) : bool := match t_pc ts with PIdle => true | _ => false end.
Definition pendZ (ts : tstate) : Z := if is_idle ts then 0%Z else 1%Z.

Lemma none_pending (pool : tid -> tstate) L :
  sumZ (fun u => pendZ (pool u)) L = 0%Z -> forall t, In t L -> is_idle (pool t) = true.
Proof.
  intros H t Ht. assert (Hz : pendZ (pool t) = 0%Z).
  { apply (sumZ_zero (fun u => pendZ (pool u)) L); [|exact H|exact Ht].
    intros u _. unfold pendZ. destruct (is_idle (pool u)); lia. }
  unfold pendZ in Hz. destruct (is_idle (pool t)); [reflexivity|discriminate Hz].
Qed.

Lemma one_pending (pool : tid -> tstate) L t : NoDup L -> In t L ->
  is_idle (pool t) = false -> sumZ (fun u => pendZ (pool u)) L = 1%Z ->
  forall u, In u L -> u <> t -> is_idle (pool u) = true.
Proof.
  intros ND Ht Hni Hp u Hu Hne.
  assert (Hs : sumZ (fun v => pendZ (upd pool t (set_pc (pool t) PIdle) v)) L = 0%Z).
  { rewrite (sumZ_ext _ (upd (fun v => pendZ (pool v)) t 0%Z)) by (intros v _; unfold upd; destruct (Nat.eqb v t); reflexivity).
    rewrite sumZ_upd by assumption. unfold pendZ at 2. rewrite Hni. lia. }
  pose proof (none_pending _ L Hs u Hu) as H. rewrite upd_other in H by exact Hne. exact H.
Qed.

(** the atomic read-modify-writes of a run do not wrap the counters around: the hypothesis
    "cumulative requested count below the largest usize" of the properties, stated on the run *)
Definition label_nowrap (l : label) : Prop :=
  match l with LAtom _ _ AAdd n old _ => old + n < W | _ => True end.
Definition nowrap (ls : list label) : Prop := Forall label_nowrap ls.

Lemma call_res_buf e ts ts' o : t_buf ts = t_buf ts' ->
  forall p, call_res e ts o = CGo p -> call_res e ts' o = CGo p.
Proof. intros Hb p. unfold call_res, stale_drops. rewrite Hb. intros H. exact H. Qed.

Lemma led_base_perm (tk dr newtk newdr : list iv) :
  Permutation ((newtk ++ tk) ++ (newdr ++ dr)) ((newtk ++ newdr) ++ (tk ++ dr)).
Proof. rewrite <- !app_assoc. apply Permutation_app_head, Permutation_app_swap_app. Qed.

Lemma runs_take_one u oi v cnt : 1 <= u -> u <= cnt -> runs_take u [mk_run oi v cnt] = [mk_run oi v u].
Proof.
  intros H1 H2. cbn [runs_take]. destruct (N.eqb_spec u 0); [lia|]. unfold mk_run. cbn [r_cnt r_idx r_val].
  destruct (N.leb_spec cnt u); [|reflexivity]. assert (u = cnt) as -> by lia. reflexivity.
Qed.

Lemma skip_returned_ret_other t r d tr o older :
  split_call t tr = Some (o, older) -> o <> Skip -> skip_returned (ERet t r d :: tr) = skip_returned tr.
Proof. intros E Hn. cbn [skip_returned]. rewrite E. destruct o; try reflexivity. contradiction Hn; reflexivity. Qed.

Lemma end_reported_ret t r d tr o older :
  split_call t tr = Some (o, older) ->
  end_reported (ERet t r d :: tr) = (is_end r && can_end o) || end_reported tr.
Proof. intros E. cbn [end_reported]. rewrite E. reflexivity. Qed.

Lemma op_eq_skip o : o = Skip \/ o <> Skip.
Proof. destruct o; try (right; discriminate). left; reflexivity. Qed.

Section Known.

Variable e : env.
Hypothesis He : wf_env e.
Hypothesis Hk : is_known (e_kind e) = true.
Hypothesis Hown : e_owning e = match e_kind e with KVec | KArray => true | _ => false end.
Variable L : list tid.
Hypothesis NDL : NoDup L.

Definition frontier (sh : shared) : N := N.min (s_c sh) (e_len e).
Definition acc_iv (ts : tstate) : list iv := map (run_iv e) (t_acc ts).
Definition accs (pool : tid -> tstate) : list iv := gather (fun t => acc_iv (pool t)) L.
Definition hist (c : cfg) : list iv := cov e (c_trace c) ++ accs (c_pool c).

(** the ledger of the consuming kinds: what was moved to callers and what the machinery destroyed *)
Definition led (c : cfg) : list iv :=
  (taken_all e (c_trace c) ++ dropped_all (c_trace c)) ++ accs (c_pool c).

(** the delivered intervals [h] are a gap-free prefix, and it reaches the frontier [n] while that is inside the source *)
Definition gap_ok (n : N) (h : list iv) : Prop :=
  iv_total h = iv_maxhi h /\ (n < e_len e -> iv_total h = n).

Definition kpc_ok (ts : tstate) : Prop :=
  match t_pc ts with
  | PIdle | PSkip | PLen _ => t_acc ts = []
  | PRes q => wf_req q /\ (q_ctx q = CTop -> t_acc ts = [])
  | _ => False
  end.

Definition call_ok (tr : list event) (t : tid) (ts : tstate) : Prop :=
  if is_idle ts then pend_call t tr = None
  else exists o older, pend_call t tr = Some (o, older) /\ call_res e ts o = CGo (t_pc ts).

Definition shape_ok (l : loopk) (x : run) : bool :=
  match l, r_idx x with LEnum, Some _ => true | LEnum, None => false | _, None => true | _, Some _ => false end.

Definition ev_all : tid -> res -> list drops -> list event -> bool :=
  fun t r d tl => ev_C02 e t r d tl && ev_C03 e t r d tl && ev_C04 e t r d tl && ev_C05 e t r d tl
                  && ev_C06 e t r d tl && ev_C11 e t r d tl && ev_C12 t r d tl.

(** what the operation [o], called when the trace was [older], has handed to its closure so far
    (latest first): only a loop hands over anything, in increasing order, nothing that was
    delivered before the call, and nothing at all once the iteration was stopped *)
Definition acc_ok (o : op) (older : list event) (acc : list run) : Prop :=
  forallb (run_idx_ok e) (rev acc) = true
  /\ (forall l c cr, o = Loop l c cr -> forallb (shape_ok l) (rev acc) = true)
  /\ increasing (map (run_iv e) (rev acc)) = true
  /\ all_above (iv_maxhi (cov e older)) (map (run_iv e) (rev acc)) = true
  /\ (stopped older = true -> acc = []).

Record KInv (c : cfg) : Prop := {
  k_wf   : forall t, kpc_ok (c_pool c t) /\ Forall wf_op (t_todo (c_pool c t)) /\ wf_buf (t_buf (c_pool c t));
  k_out  : forall t, ~ In t L -> is_idle (c_pool c t) = true;
  k_call : forall t, call_ok (c_trace c) t (c_pool c t);
  k_pend : n_pending (c_trace c) = sumZ (fun t => pendZ (c_pool c t)) L;
  k_til  : tiling (clean (c_trace c)) (frontier (c_sh c)) (hist c);
  k_end  : end_reported (c_trace c) = true -> e_len e <= s_c (c_sh c);
  k_skip : skip_returned (c_trace c) = true -> e_len e <= s_c (c_sh c);
  k_buf  : forall t bf, t_buf (c_pool c t) = Some bf -> buf_size t (c_trace c) = Some (bf_c bf) /\ bf_slots bf = [];
  k_acc  : forall t o older, pend_call t (c_trace c) = Some (o, older) -> acc_ok o older (t_acc (c_pool c t));
  k_rep  : forall m, min_reported (c_trace c) = Some m -> e_len e - frontier (c_sh c) <= m;
  k_sk   : has_skip (c_trace c) = true ->
           skip_returned (c_trace c) = true \/ exists u, In u L /\ t_pc (c_pool c u) = PSkip;
  k_evs  : all_rets ev_all (c_trace c) = true;
  k_gap  : has_panic (c_trace c) = false -> gap_ok (frontier (c_sh c)) (hist c);
  k_led  : if e_owning e then tiling true (frontier (c_sh c)) (led c) else dropped_all (c_trace c) = [];
  k_nofin : has_final (c_trace c) = false
}.

Lemma pend_call_others t u evs tr : u <> t -> Forall (ev_of t) evs -> pend_call u (evs ++ tr) = pend_call u tr.
Proof.
  intros Hn F. apply not_eq_sym in Hn. induction F as [|ev evs H1 _ IH]; [reflexivity|].
  destruct ev as [v o|v r d|f r d]; cbn [ev_of] in H1; [subst v..|contradiction]; cbn [app].
  - rewrite pend_call_other_call by exact Hn. exact IH.
  - rewrite pend_call_other_ret by exact Hn. exact IH.
Qed.

Lemma buf_size_others t u evs tr : u <> t -> Forall (ev_of t) evs -> buf_size u (evs ++ tr) = buf_size u tr.
Proof.
  intros Hn F. apply not_eq_sym in Hn. induction F as [|ev evs H1 _ IH]; [reflexivity|].
  destruct ev as [v o|v r d|f r d]; cbn [ev_of] in H1; [subst v..|contradiction]; cbn [app].
  - rewrite buf_size_other_call by exact Hn. exact IH.
  - exact IH.
Qed.

(** a step of [t] adds [new] to a multiset [base] of intervals: together with what the loops hold,
    the multiset grows by [delta], the intervals the step acquired *)
Lemma accs_move pool t ts' (new delta base : list iv) :
  In t L ->
  Permutation (new ++ acc_iv ts') (delta ++ acc_iv (pool t)) ->
  Permutation ((new ++ base) ++ accs (upd pool t ts')) (delta ++ base ++ accs pool).
Proof.
  intros Hin P. unfold accs.
  destruct (gather_upd (fun u => acc_iv (pool u)) L t (acc_iv ts') NDL Hin) as (rest & -> & P2).
  erewrite (gather_ext (fun u => acc_iv (upd pool t ts' u))), P2.
  - rewrite <- app_assoc, (Permutation_app_swap_app base), app_assoc, P, <- app_assoc.
    apply Permutation_app_head, Permutation_app_swap_app.
  - intros u _. unfold upd. destruct (Nat.eqb u t); reflexivity.
Qed.

Lemma gap_perm n h h' : Permutation h h' -> gap_ok n h -> gap_ok n h'.
Proof.
  intros P [H1 H2]. unfold gap_ok. rewrite <- (iv_total_perm _ _ P), <- (iv_maxhi_perm _ _ P). auto.
Qed.

Lemma gap_extend n h delta cnt :
  gap_ok n h -> n < e_len e -> iv_total delta = cnt -> iv_maxhi delta = n + cnt ->
  gap_ok (n + cnt) (delta ++ h).
Proof.
  intros [H1 H2] Hlt Ht Hm. unfold gap_ok.
  rewrite iv_total_app, iv_maxhi_app, Ht, Hm. lia.
Qed.

Lemma kind_cases : e_kind e = KSlice \/ e_kind e = KVec \/ e_kind e = KArray \/ e_kind e = KRange.
Proof using Hk. generalize Hk. case (e_kind e); auto. discriminate. Qed.

Lemma owning_kind : e_owning e = true -> e_kind e = KVec \/ e_kind e = KArray.
Proof using Hown Hk. intros H. rewrite Hown in H. destruct (e_kind e); try discriminate; auto. Qed.

Lemma step_res c t q : t_pc (c_pool c t) = PRes q ->
  step e c t = finish e c t (with_c (c_sh c) (wadd (s_c (c_sh c)) (k_incr e q))) (c_pool c t)
                      (LAtom t SC AAdd (k_incr e q) (s_c (c_sh c)) (o_res q)) q (k_pull e q (s_c (c_sh c))).
Proof using Hk. intros H1. unfold step. rewrite H1. destruct kind_cases as [K|[K|[K|K]]]; rewrite K; reflexivity. Qed.

(** skip_to_end stores the length into the counter of a slice or a range, and adds the length to the
    counter of a vector or an array, destroying the elements between the two values *)
Lemma step_skip c t : t_pc (c_pool c t) = PSkip ->
  step e c t =
  if e_owning e
  then commit c t (with_c (c_sh c) (wadd (s_c (c_sh c)) (e_len e))) (set_pc (c_pool c t) PIdle)
         (LAtom t SC AAdd (e_len e) (s_c (c_sh c)) ord_counter_fetch_and_add)
         [ERet t RUnit match pull_spec e (e_len e) (s_c (c_sh c)) with PREnd => [] | PRGot _ rs _ => drops_after e 0 rs end]
  else commit c t (with_c (c_sh c) (e_len e)) (set_pc (c_pool c t) PIdle)
         (LAtom t SC AStore (e_len e) 0 ord_counter_store) [ERet t RUnit []].
Proof.
  intros H. unfold step. rewrite H, Hown.
  destruct kind_cases as [K|[K|[K|K]]]; rewrite K; try reflexivity;
    rewrite (k_fetch_n_spec e _ _ He), N.min_id; destruct (pull_spec e (e_len e) (s_c (c_sh c))); reflexivity.
Qed.

Lemma step_len c t hm : t_pc (c_pool c t) = PLen hm ->
  step e c t = commit c t (c_sh c) (set_pc (c_pool c t) PIdle) (LAtom t SC ALoad 0 (s_c (c_sh c)) ord_counter_current)
                      [ERet t (len_res hm (Some (k_len e (s_c (c_sh c))))) []].
Proof. intros H. unfold step. rewrite H. destruct kind_cases as [K|[K|[K|K]]]; rewrite K; reflexivity. Qed.

Lemma not_owning_drops_run v cnt : e_owning e = false -> drops_of_run e v cnt = [].
Proof using. intros H. unfold drops_of_run. rewrite H. reflexivity. Qed.

Lemma not_owning_drops_after k rs : e_owning e = false -> drops_after e k rs = [].
Proof using.
  intros H. revert k. induction rs as [|r rs IH]; intros k; cbn [drops_after]; [reflexivity|].
  destruct (r_cnt r <=? k); [apply IH|]. rewrite not_owning_drops_run by assumption. apply IH.
Qed.

Lemma not_owning_stale ts : e_owning e = false -> stale_drops e ts = [].
Proof using. intros H. unfold stale_drops, drops_of_list. rewrite H. destruct (t_buf ts); reflexivity. Qed.

Lemma finish_labels c t sh ts l q pr : c_labels (finish e c t sh ts l q pr) = l :: c_labels c.
Proof using. unfold finish. destruct (deliver e ts q pr) as [ts' o]. reflexivity. Qed.

Lemma set_pc_idle ts : t_acc ts = [] ->
  set_pc ts PIdle = {| t_pc := PIdle; t_todo := t_todo ts; t_buf := t_buf ts; t_acc := [] |}.
Proof using. intros H. unfold set_pc. rewrite H. reflexivity. Qed.

Lemma run_iv_at b cnt oi : run_iv e (mk_run oi (val_of e b) cnt) = (b, cnt).
Proof using. unfold run_iv, mk_run. cbn [r_val r_cnt]. rewrite pos_of_val_of. reflexivity. Qed.

Lemma pull_frontier q sh : wf_req q ->
  let sh' := with_c sh (s_c sh + k_incr e q) in
  match pull_spec e (q_n q) (s_c sh) with
  | PREnd => frontier sh' = frontier sh /\ (q_n q <> 0 -> e_len e <= s_c sh)
  | PRGot _ _ cnt => frontier sh = s_c sh /\ frontier sh' = s_c sh + cnt
  end.
Proof using.
  intros [_ Hm]. unfold frontier, k_incr. cbn [with_c s_c].
  destruct (pull_spec e (q_n q) (s_c sh)) eqn:PS; [apply pull_spec_end in PS|apply pull_spec_got in PS];
    destruct (q_mode q); lia.
Qed.

Lemma runs_take_map took oi b cnt :
  took <= cnt ->
  map (run_iv e) (runs_take took [mk_run oi (val_of e b) cnt]) = (if took =? 0 then [] else [(b, took)]).
Proof using.
  intros Ht. destruct (N.eqb_spec took 0) as [->|Hz]; [reflexivity|].
  rewrite runs_take_one by lia. cbn [map]. rewrite run_iv_at. reflexivity.
Qed.

Lemma cover_chunk b cnt took oi :
  took <= cnt ->
  map (run_iv e) (runs_take took [mk_run oi (val_of e b) cnt]) ++ [(b + took, cnt - took)]
  = (if took =? 0 then [] else [(b, took)]) ++ [(b + took, cnt - took)].
Proof using. intros Ht. rewrite runs_take_map by assumption. reflexivity. Qed.

Lemma drops_after_one u oi b cnt :
  drops_iv (drops_after e u [mk_run oi (val_of e b) cnt])
  = if e_owning e then (if 0 <? cnt - u then [(b + u, cnt - u)] else []) else [].
Proof using.
  clear Hk Hown. cbn [drops_after]. unfold mk_run. cbn [r_cnt r_val].
  destruct (N.leb_spec cnt u) as [H|H].
  - assert (cnt - u = 0) as -> by lia. destruct (e_owning e); reflexivity.
  - rewrite app_nil_r. unfold drops_of_run. destruct (e_owning e); [|reflexivity]. cbn [andb].
    destruct (N.ltb_spec 0 (cnt - u)); [|lia]. cbn [drops_iv map d_lo d_cnt]. f_equal. f_equal.
    unfold pos_of, val_of. destruct (e_kind e); lia.
Qed.

Lemma chunk_ok_at n k b cnt :
  1 <= cnt -> cnt <= n -> b + cnt <= e_len e -> (cnt < n -> b + cnt = e_len e) ->
  chunk_ok e n k (chunk_res b [mk_run (Some b) (val_of e b) cnt] cnt (N.min k cnt)) = true.
Proof using.
  intros H1 H2 H3 H4. unfold chunk_res, chunk_ok.
  repeat (apply andb_true_intro; split); try (apply N.leb_le; lia); try apply N.eqb_refl.
  - apply orb_true_iff. rewrite !N.eqb_eq. lia.
  - destruct (N.eqb_spec (N.min k cnt) 0) as [Hz|Hz]; [rewrite Hz; reflexivity|].
    rewrite runs_take_one by lia. cbn [mk_run r_cnt r_idx r_val]. rewrite !N.eqb_refl. reflexivity.
Qed.

Lemma deliver_top_known ts q b rs cnt :
  deliver_top e ts q b rs cnt =
  (set_pc ts PIdle,
   match q_mode q with
   | MSingle v => (one_res (if reports_idx v then rs else map strip_idx rs), [])
   | MChunk k | MBuf k => (chunk_res b rs cnt (N.min k cnt), drops_after e (N.min k cnt) rs)
   end).
Proof.
  unfold deliver_top. destruct (q_mode q); try reflexivity.
  destruct kind_cases as [K|[K|[K|K]]]; rewrite K; reflexivity.
Qed.

Lemma ev_C11_nolen t r d tl o older :
  split_call t tl = Some (o, older) -> len_answer r = None ->
  (zero_reported older = true -> delivers_nothing e r = true) ->
  ev_C11 e t r d tl = true.
Proof.
  intros Hs Hl Hz. unfold ev_C11. rewrite (yes_zero_nolen r Hl), Hs, Hl.
  unfold zero_reported in Hz. destruct (min_reported older) as [[|]|]; auto.
Qed.

Lemma ev_all_intro t r d tl :
  ev_C02 e t r d tl = true -> ev_C03 e t r d tl = true -> ev_C04 e t r d tl = true -> ev_C05 e t r d tl = true ->
  ev_C06 e t r d tl = true -> ev_C11 e t r d tl = true -> ev_C12 t r d tl = true -> ev_all t r d tl = true.
Proof. unfold ev_all. intros -> -> -> -> -> -> ->. reflexivity. Qed.

(** the checks of a result [r] that is not a length answer, of the operation [o] that thread [t] called when
    the trace was [older]: C05, C06 and C11 judge only a call made after the iteration was stopped *)
Lemma ev_all_pull t r d tl o older :
  pend_call t tl = Some (o, older) -> len_answer r = None -> o <> HasMore -> o <> TryLen ->
  forallb (run_idx_ok e) (res_runs r) = true ->
  match o with
  | Chunk n k => (n =? 0) || chunk_ok e n k r
  | BufNext k => match buf_size t older with Some c => chunk_ok e c k r | None => true end
  | _ => true
  end = true ->
  increasing (res_cover e r) = true ->
  all_above (iv_maxhi (cov e older)) (res_cover e r) = true ->
  (stopped older = true -> (if can_end o then is_end r || is_panic r else true) = true /\ delivers_nothing e r = true) ->
  match o with Loop l c cr => if c =? 0 then is_chunkzero r else loop_shape_ok l r && loop_panic_ok cr r | _ => true end = true ->
  ev_all t r d tl = true.
Proof.
  intros Hp Hl Hnh Hnt H2 H3 H4a H4b Hst H12. pose proof (pend_split _ _ _ Hp) as Hs.
  assert (Hnp : no_positive r = true) by (destruct r as [| | | |[]|[]| | |]; try discriminate Hl; reflexivity).
  apply ev_all_intro; try assumption.
  - unfold ev_C03. rewrite Hs. exact H3.
  - unfold ev_C04. rewrite Hs, H4a, H4b, (cov_of_pend _ _ _ _ _ Hp), andb_true_r.
    eapply all_above_mono; [apply cov_of_maxhi|exact H4b].
  - unfold ev_C05. rewrite Hs, Hnp. destruct (end_reported older) eqn:E; [|reflexivity].
    destruct Hst as [-> ->]; [unfold stopped; rewrite E|]; reflexivity.
  - unfold ev_C06. rewrite Hs. destruct (skip_returned older) eqn:E; [|reflexivity].
    destruct Hst as [-> ->]; [unfold stopped; rewrite E, orb_true_r; reflexivity|].
    destruct o; try reflexivity; [contradiction Hnt|contradiction Hnh]; reflexivity.
  - apply ev_C11_nolen with o older; [exact Hs|exact Hl|].
    intros H. apply Hst. unfold stopped. rewrite H. apply orb_true_r.
  - unfold ev_C12. rewrite Hs. exact H12.
Qed.

(** results that deliver nothing and are not length answers *)
Definition null_pair (o : op) (r : res) : bool :=
  match o, r with
  | (Next _ | Chunk _ _ | BufNext _), RNone => true
  | BufNext _, RPanic _ [] => true
  | BufNew c, RPanic _ [] => c =? 0
  | BufNew c, RUnit => true
  | (BufDrop | Skip), RUnit => true
  | Loop _ c _, RPanic k [] => (c =? 0) && is_chunkzero (RPanic k [])
  | Loop _ c _, RLoop [] => negb (c =? 0)
  | _, _ => false
  end.

Lemma null_facts o r : null_pair o r = true ->
  res_cover e r = [] /\ len_answer r = None /\ is_end r || is_panic r || negb (can_end o) = true /\ res_runs r = [].
Proof.
  intros Hp. destruct o, r; cbn [null_pair] in Hp; try discriminate; try (destruct rs; try discriminate);
    repeat split.
Qed.

Lemma ev_all_null t r d tl o older :
  pend_call t tl = Some (o, older) -> null_pair o r = true -> ev_all t r d tl = true.
Proof.
  intros Hs Hp. destruct (null_facts o r Hp) as (Hc & Hl & He' & Hr).
  apply ev_all_pull with o older; try assumption; rewrite ?Hr, ?Hc; try reflexivity.
  - intros ->. discriminate Hp.
  - intros ->. discriminate Hp.
  - destruct o, r; try discriminate Hp; try reflexivity; [apply orb_true_r|destruct (buf_size t older); reflexivity..].
  - intros _. split; [|unfold delivers_nothing; rewrite Hc; reflexivity]. destruct (can_end o); [|reflexivity].
    rewrite orb_false_r in He'. exact He'.
  - destruct o; try reflexivity. destruct r; try discriminate Hp; destruct rs; try discriminate Hp; cbn [null_pair] in Hp.
    + destruct (c =? 0); [discriminate Hp|reflexivity].
    + destruct (c =? 0); [exact Hp|discriminate Hp].
Qed.

Lemma has_skip_ret t r d tr : has_skip (ERet t r d :: tr) = has_skip tr.
Proof. reflexivity. Qed.

(** [I] under a name that a hypothesis called [I] (the invariant, in most proofs) does not hide *)
Definition I0 : True := I.

Lemma acc_ok_nil o older : acc_ok o older [].
Proof. repeat split; reflexivity. Qed.

Lemma acc_ok_more l c cr older acc inv b cnt :
  acc_ok (Loop l c cr) older acc -> stopped older = false ->
  forallb (run_idx_ok e) inv = true -> forallb (shape_ok l) inv = true -> map (run_iv e) inv = [(b, cnt)] ->
  iv_maxhi (map (run_iv e) acc) <= b -> iv_maxhi (cov e older) <= b ->
  acc_ok (Loop l c cr) older (rev inv ++ acc).
Proof.
  intros (A1 & A2 & A3 & A4 & _) Hst Hx Hsh Hiv Hacc Hold. unfold acc_ok.
  rewrite rev_app_distr, rev_involutive, forallb_app, map_app, all_above_app, Hiv, Hx, A1, A4, Hst.
  repeat split; try discriminate.
  - intros l' c' cr' Ho. injection Ho as <- _ _. rewrite forallb_app, Hsh, andb_true_r. exact (A2 l c cr eq_refl).
  - apply increasing_snoc; [exact A3|]. rewrite map_rev, <- (iv_maxhi_perm _ _ (Permutation_rev _)). exact Hacc.
  - cbn [all_above forallb fst]. rewrite andb_true_r. apply orb_true_iff. right. apply N.leb_le. exact Hold.
Qed.

Lemma ev_all_loop t d tl l c cr older acc r :
  pend_call t tl = Some (Loop l c cr, older) -> c <> 0 -> acc_ok (Loop l c cr) older acc ->
  r = RLoop (rev acc) \/ r = RPanic PkUser (rev acc) /\ cr <> None ->
  ev_all t r d tl = true.
Proof.
  intros Hp Hc (A1 & A2 & A3 & A4 & A5) Hr.
  assert (Hruns : res_runs r = rev acc /\ res_cover e r = map (run_iv e) (rev acc))
    by (destruct Hr as [->|[-> _]]; split; reflexivity).
  destruct Hruns as [Hruns Hcov].
  apply ev_all_pull with (Loop l c cr) older; try assumption; try discriminate; rewrite ?Hruns, ?Hcov; try assumption.
  - destruct Hr as [->|[-> _]]; reflexivity.
  - reflexivity.
  - intros H. unfold delivers_nothing. rewrite Hcov, (A5 H). split; [|reflexivity].
    destruct Hr as [->|[-> _]]; reflexivity.
  - destruct (N.eqb_spec c 0); [contradiction|]. specialize (A2 l c cr eq_refl).
    destruct Hr as [->|[-> Hcr]]; cbn [loop_shape_ok loop_panic_ok]; [rewrite andb_true_r; exact A2|].
    destruct cr; [rewrite andb_true_r; exact A2|contradiction].
Qed.

(** which operation a thread is in, read off its program counter: for a pull, its request *)
Lemma call_go ts o p : call_res e ts o = CGo p ->
  match p with
  | PRes q =>
      (wf_op o -> wf_buf (t_buf ts) -> wf_req q) /\ (wf_req q -> can_end o = true -> q_n q <> 0) /\
      match q_ctx q with
      | CTop =>
          null_pair o RNone = true /\ (forall l c cr, o <> Loop l c cr) /\ o <> HasMore /\ o <> TryLen /\
          match o with
          | Chunk n k => q_n q = n /\ q_mode q = MChunk k
          | BufNext k => exists bf, t_buf ts = Some bf /\ q_n q = bf_c bf /\ q_mode q = MBuf k
          | _ => True
          end
      | CLoop l cr => exists c, o = Loop l c cr /\ c <> 0
      end
  | PSkip => o = Skip
  | PLen hm => o = if hm then HasMore else TryLen
  | _ => False
  end.
Proof.
  unfold call_res, wf_req. destruct o; cbn [wf_op wf_buf can_end is_pull].
  - intros E. injection E as <-. cbn. repeat split; try discriminate; lia.
  - destruct kind_cases as [K|[K|[K|K]]]; rewrite K; intros E; injection E as <-; cbn;
      repeat split; try discriminate; try assumption; intros _ H ->; discriminate H.
  - destruct (c =? 0); discriminate.
  - destruct (t_buf ts) as [bf|]; [|discriminate]. intros E. injection E as <-. cbn.
    repeat split; try discriminate; try lia. exists bf. repeat split; reflexivity.
  - discriminate.
  - destruct (N.eqb_spec c 0); [discriminate|]. destruct (N.eqb_spec c 1); intros E; injection E as <-; cbn;
      (repeat split; try lia; exists c; split; [reflexivity|assumption]).
  - intros E. injection E as <-. reflexivity.
  - intros E. injection E as <-. reflexivity.
  - intros E. injection E as <-. reflexivity.
Qed.

Lemma call_ret_ok ts o b r d t tr :
  call_res e ts o = CRet b r d -> wf_op o -> wf_buf (t_buf ts) ->
  (forall bf, t_buf ts = Some bf -> buf_size t tr = Some (bf_c bf) /\ bf_slots bf = []) ->
  (null_pair o r = true /\ o <> Skip /\ is_end r = false /\ res_taken e r = [] /\ d = [] /\ wf_buf b) /\
  (forall bf, b = Some bf -> buf_size t (ECall t o :: tr) = Some (bf_c bf) /\ bf_slots bf = []).
Proof.
  intros E Hwo Hbuf Hold.
  assert (Hstale : stale_drops e ts = []).
  { unfold stale_drops. destruct (t_buf ts) as [bf|]; [|reflexivity].
    rewrite (proj2 (Hold bf eq_refl)). unfold drops_of_list. destruct (e_owning e); reflexivity. }
  unfold call_res in E. rewrite Hstale in E. destruct o; cbn [wf_op] in Hwo; try discriminate E.
  - destruct kind_cases as [K|[K|[K|K]]]; rewrite K in E; discriminate E.
  - cbn [buf_size]. rewrite Nat.eqb_refl. destruct (N.eqb_spec c 0) as [Hz|Hz]; injection E as <- <- <-; split.
    + repeat split; try assumption; try discriminate. apply N.eqb_eq, Hz.
    + exact Hold.
    + repeat split; try discriminate; cbn; lia.
    + intros bf Hbf. injection Hbf as <-. split; [reflexivity|].
      unfold empty_slots. destruct kind_cases as [K|[K|[K|K]]]; rewrite K; reflexivity.
  - destruct (t_buf ts); [discriminate E|]. injection E as <- <- <-. repeat split; discriminate.
  - injection E as <- <- <-. repeat split; discriminate.
  - destruct (N.eqb_spec c 0) as [Hz|Hz]; [|destruct (c =? 1); discriminate E]. injection E as <- <- <-. split.
    + repeat split; try assumption; try discriminate. cbn [null_pair is_chunkzero]. rewrite andb_true_r. apply N.eqb_eq, Hz.
    + exact Hold.
Qed.

(** a direct pull that obtained [b, b + cnt): for some [took], the result covers [(b, took)] and the rest
    of the chunk, and the ledger gets [(b, took)] as taken and the rest as destroyed *)
Lemma deliver_top_got ts q b cnt :
  1 <= cnt -> wf_req q ->
  cnt <= q_n q -> b + cnt <= e_len e -> (cnt < q_n q -> b + cnt = e_len e) ->
  exists r d, deliver_top e ts q b [mk_run (Some b) (val_of e b) cnt] cnt = (set_pc ts PIdle, (r, d))
    /\ is_end r = false /\ is_panic r = false /\ len_answer r = None
    /\ forallb (run_idx_ok e) (res_runs r) = true
    /\ (forall k, q_mode q = MChunk k \/ q_mode q = MBuf k -> chunk_ok e (q_n q) k r = true)
    /\ exists took, took <= cnt /\
         res_cover e r = (if took =? 0 then [] else [(b, took)]) ++ [(b + took, cnt - took)]
         /\ if e_owning e then res_taken e r ++ drops_iv d = led_split b took cnt else d = [].
Proof.
  intros Hc [Hn Hm] Hcn Hcl Hsh. rewrite deliver_top_known.
  destruct (q_mode q) as [v|k|k]; eexists _, _; (split; [reflexivity|]).
  { assert (cnt = 1) as -> by lia.
    pose proof (run_idx_ok_at e (Some b) b 1 eq_refl ltac:(lia)) as Hok.
    destruct (reports_idx v); cbn [map one_res is_end is_panic len_answer res_runs res_cover res_taken forallb drops_iv];
      rewrite ?run_iv_strip, run_iv_at, ?(run_idx_ok_strip _ _ Hok), ?Hok.
    all: repeat split; try (intros k [X|X]; discriminate X).
    all: exists 0; unfold led_split; cbn [N.eqb N.ltb N.compare N.sub app]; rewrite N.add_0_r.
    all: repeat split; [apply N.le_0_l|]; destruct (e_owning e); reflexivity. }
  (* a chunk: the two ways of asking for one differ in the request only *)
  all: unfold chunk_res; cbn [is_end is_panic len_answer res_runs res_cover res_taken]; repeat split.
  1,4: apply runs_take_idx_ok, idx_ok_one; intros _; exact Hcl.
  1,3: intros k' [X|X]; try discriminate X; injection X as <-; apply chunk_ok_at; assumption.
  all: exists (N.min k cnt); rewrite cover_chunk by apply N.le_min_r; repeat split; [apply N.le_min_r|].
  all: destruct (e_owning e) eqn:Ho; [|apply not_owning_drops_after, Ho].
  all: rewrite drops_after_one, Ho, runs_take_map by apply N.le_min_r; reflexivity.
Qed.

Lemma loop_invoke_cases l crash done b cnt :
  b + cnt <= e_len e ->
  exists inv pan, loop_invoke l crash done [mk_run (Some b) (val_of e b) cnt] cnt = (inv, pan) /\
    forallb (run_idx_ok e) inv = true /\ forallb (shape_ok l) inv = true /\
    match pan with
    | None => map (run_iv e) inv = [(b, cnt)]
    | Some used => 1 <= used /\ used <= cnt /\ map (run_iv e) inv = [(b, used)]
    end.
Proof using.
  intros Hcl. unfold loop_invoke.
  set (shape := match l with LEnum => fun r => r | _ => strip_idx end).
  assert (Hone : forall u, u <= cnt ->
            forallb (run_idx_ok e) (map shape [mk_run (Some b) (val_of e b) u]) = true
            /\ forallb (shape_ok l) (map shape [mk_run (Some b) (val_of e b) u]) = true
            /\ map (run_iv e) (map shape [mk_run (Some b) (val_of e b) u]) = [(b, u)]).
  { intros u Hu. pose proof (run_idx_ok_at e (Some b) b u eq_refl ltac:(lia)) as Hok.
    cbn [map forallb]. rewrite <- (run_iv_at b u (Some b)), !andb_true_r.
    destruct l; repeat split; try exact Hok; apply run_idx_ok_strip, Hok. }
  destruct crash as [k|]; [destruct ((done <=? k) && (k <? done + cnt)) eqn:E|]; eexists _, _; (split; [reflexivity|]).
  - apply andb_true_iff in E. destruct E as [E1 E2]. apply N.leb_le in E1. apply N.ltb_lt in E2.
    rewrite runs_take_one by lia. destruct (Hone (k - done + 1)) as (-> & -> & ->); [lia|]. repeat split; lia.
  - apply Hone. lia.
  - apply Hone. lia.
Qed.

Lemma knows_len_known : knows_len e = true.
Proof using Hk. unfold knows_len. destruct kind_cases as [K|[K|[K|K]]]; rewrite K; reflexivity. Qed.

Lemma acc_idle c t : KInv c -> is_idle (c_pool c t) = true -> t_acc (c_pool c t) = [].
Proof.
  intros I H. destruct (k_wf c I t) as (Hpc & _ & _). unfold kpc_ok in Hpc. unfold is_idle in H.
  destruct (t_pc (c_pool c t)); try discriminate. exact Hpc.
Qed.

Section Step.

Variables (c : cfg) (t : tid).
Hypothesis I : KInv c.
Hypothesis Hin : In t L.

(** a step of thread [t] that appends the events [evs]: what has to be shown is what concerns [t]
    itself, and what the invariant says of the trace, the counter and the delivered intervals *)
Lemma kinv_commit sh' ts' l evs :
  Forall (ev_of t) evs ->
  kpc_ok ts' -> Forall wf_op (t_todo ts') -> wf_buf (t_buf ts') ->
  call_ok (evs ++ c_trace c) t ts' ->
  n_pending (evs ++ c_trace c) = (n_pending (c_trace c) - pendZ (c_pool c t) + pendZ ts')%Z ->
  (forall bf, t_buf ts' = Some bf -> buf_size t (evs ++ c_trace c) = Some (bf_c bf) /\ bf_slots bf = []) ->
  (forall o older, pend_call t (evs ++ c_trace c) = Some (o, older) -> acc_ok o older (t_acc ts')) ->
  tiling (clean (evs ++ c_trace c)) (frontier sh') (cov e (evs ++ c_trace c) ++ accs (upd (c_pool c) t ts')) ->
  (end_reported (evs ++ c_trace c) = true -> e_len e <= s_c sh') ->
  (skip_returned (evs ++ c_trace c) = true -> e_len e <= s_c sh') ->
  (forall m, min_reported (evs ++ c_trace c) = Some m -> e_len e - frontier sh' <= m) ->
  (has_skip (evs ++ c_trace c) = true ->
     skip_returned (evs ++ c_trace c) = true \/ exists u, In u L /\ t_pc (upd (c_pool c) t ts' u) = PSkip) ->
  all_rets ev_all (evs ++ c_trace c) = true ->
  (has_panic (evs ++ c_trace c) = false ->
     gap_ok (frontier sh') (cov e (evs ++ c_trace c) ++ accs (upd (c_pool c) t ts'))) ->
  (if e_owning e
   then tiling true (frontier sh') ((taken_all e (evs ++ c_trace c) ++ dropped_all (evs ++ c_trace c)) ++ accs (upd (c_pool c) t ts'))
   else dropped_all (evs ++ c_trace c) = []) ->
  KInv (commit c t sh' ts' l evs).
Proof.
  intros Fev Hpc Htodo Hbuf Hcall Hpend Hbs Hacc Htil Hend Hskip Hrep Hsk Hevs Hgap Hled.
  assert (Hoth : forall u, u = t \/ u <> t /\ upd (c_pool c) t ts' u = c_pool c u).
  { intros u. destruct (Nat.eq_dec u t) as [->|Hn]; [left; reflexivity|right]. split; [exact Hn|apply upd_other; exact Hn]. }
  split; cbn [commit c_pool c_trace c_sh]; try assumption.
  - intros u. destruct (Hoth u) as [->|[_ ->]]; [rewrite upd_same; auto|apply (k_wf c I)].
  - intros u Hu. destruct (Hoth u) as [->|[_ ->]]; [contradiction|apply (k_out c I); exact Hu].
  - intros u. destruct (Hoth u) as [->|[Hn ->]]; [rewrite upd_same; exact Hcall|].
    unfold call_ok. rewrite (pend_call_others t u evs _ Hn Fev). apply (k_call c I).
  - rewrite Hpend, (k_pend c I).
    transitivity (sumZ (upd (fun u => pendZ (c_pool c u)) t (pendZ ts')) L).
    + rewrite sumZ_upd by assumption. lia.
    + apply sumZ_ext. intros u _. unfold upd. destruct (Nat.eqb u t); reflexivity.
  - intros u. destruct (Hoth u) as [->|[Hn ->]]; [rewrite upd_same; exact Hbs|].
    rewrite (buf_size_others t u evs _ Hn Fev). apply (k_buf c I).
  - intros u. destruct (Hoth u) as [->|[Hn ->]]; [rewrite upd_same; exact Hacc|].
    rewrite (pend_call_others t u evs _ Hn Fev). apply (k_acc c I).
  - pose proof (k_nofin c I) as Hn. clear - Fev Hn. induction Fev as [|ev evs H1 _ IH]; [exact Hn|].
    destruct ev; cbn [ev_of] in H1; [exact IH..|contradiction].
Qed.

(** the skip bookkeeping is kept by a step of a thread that neither starts nor finishes a skip *)
Lemma sk_keep ts' evs :
  t_pc (c_pool c t) <> PSkip ->
  has_skip (evs ++ c_trace c) = has_skip (c_trace c) ->
  has_skip (evs ++ c_trace c) = true ->
  skip_returned (evs ++ c_trace c) = true \/ exists u, In u L /\ t_pc (upd (c_pool c) t ts' u) = PSkip.
Proof.
  intros Hnp Hhs H. rewrite Hhs in H. destruct (k_sk c I H) as [Hr|(u & Hu & Hpu)].
  - left. apply (skip_returned_suffix (c_trace c)); [apply suffix_app, suffix_refl|exact Hr].
  - right. exists u. split; [assumption|]. rewrite upd_other; [assumption|]. intros ->. contradiction.
Qed.

Lemma stopped_len : stopped (c_trace c) = true -> e_len e <= s_c (c_sh c).
Proof.
  unfold stopped. rewrite !orb_true_iff. intros [[H|H]|H].
  - apply (k_end c I H).
  - apply (k_skip c I H).
  - unfold zero_reported in H. destruct (min_reported (c_trace c)) as [[|]|] eqn:E; try discriminate.
    pose proof (k_rep c I 0 E). unfold frontier in *. lia.
Qed.

Lemma cov_below : iv_maxhi (cov e (c_trace c)) <= frontier (c_sh c).
Proof.
  pose proof (tl_within _ _ _ (k_til c I)) as H. unfold hist in H.
  rewrite iv_within_app in H. apply andb_true_iff in H. apply iv_within_maxhi, H.
Qed.

Lemma acc_below : iv_maxhi (acc_iv (c_pool c t)) <= frontier (c_sh c).
Proof.
  apply iv_within_maxhi. apply forallb_forall. intros a Ha.
  pose proof (tl_within _ _ _ (k_til c I)) as H. unfold iv_within in H. rewrite forallb_forall in H. apply H.
  apply in_or_app. right. apply gather_in. exists t. split; assumption.
Qed.

(** The operation [o] of thread [t] returns [r], having destroyed [d]; the thread becomes idle and
    its loop hands back what it held.  What differs from case to case: where the counter stands
    afterwards, the check of this one event, and the intervals [delta] ([ldelta] in the ledger) that
    the result adds to those the loop held. *)
Lemma kinv_ret o older sh' l r d delta ldelta :
  pend_call t (c_trace c) = Some (o, older) ->
  frontier (c_sh c) <= frontier sh' ->
  (is_end r && can_end o = true -> e_len e <= s_c sh') ->
  (o = Skip -> e_len e <= s_c sh') ->
  (forall m, len_answer r = Some (Some m) -> e_len e - frontier sh' <= m) ->
  ev_all t r d (c_trace c) = true ->
  Permutation (res_cover e r) (delta ++ acc_iv (c_pool c t)) ->
  tiling (negb (is_panic r) && clean (c_trace c)) (frontier sh') (delta ++ hist c) ->
  (is_panic r = false -> has_panic (c_trace c) = false -> gap_ok (frontier sh') (delta ++ hist c)) ->
  (if e_owning e
   then Permutation (res_taken e r ++ drops_iv d) (ldelta ++ acc_iv (c_pool c t))
        /\ tiling true (frontier sh') (ldelta ++ led c)
   else d = []) ->
  KInv (commit c t sh' {| t_pc := PIdle; t_todo := t_todo (c_pool c t); t_buf := t_buf (c_pool c t); t_acc := [] |} l
               [ERet t r d]).
Proof.
  intros Hpend Hmono Hend Hskip Hrep Hev Pc T G Hl.
  pose proof (pend_split _ _ _ Hpend) as Hsplit.
  pose proof (k_call c I t) as Hc. unfold call_ok in Hc.
  destruct (is_idle (c_pool c t)) eqn:Hni; [rewrite Hpend in Hc; discriminate Hc|].
  destruct Hc as (o' & older' & Hp' & Hres). rewrite Hpend in Hp'. injection Hp' as <- <-.
  destruct (k_wf c I t) as (_ & Hops & Hbuf).
  pose proof (k_led c I) as Hl0.
  assert (Hge : e_len e <= s_c (c_sh c) -> e_len e <= s_c sh') by (unfold frontier in Hmono; lia).
  set (ts' := {| t_pc := PIdle; t_todo := t_todo (c_pool c t); t_buf := t_buf (c_pool c t); t_acc := [] |}).
  assert (Ph : Permutation (cov e (ERet t r d :: c_trace c) ++ accs (upd (c_pool c) t ts')) (delta ++ hist c)).
  { apply accs_move; [exact Hin|]. rewrite app_nil_r. exact Pc. }
  apply kinv_commit; try assumption; cbn [app].
  - repeat constructor.
  - reflexivity.
  - apply pend_call_self_ret.
  - rewrite n_pending_ret. unfold pendZ. rewrite Hni. cbn [is_idle ts' t_pc]. lia.
  - intros bf Hbf. apply (k_buf c I t bf Hbf).
  - rewrite pend_call_self_ret. discriminate.
  - rewrite clean_ret. apply (tiling_perm _ _ _ _ (Permutation_sym Ph) T).
  - rewrite (end_reported_ret _ _ _ _ _ _ Hsplit). intros H. apply orb_true_iff in H.
    destruct H as [H|H]; [exact (Hend H)|exact (Hge (k_end c I H))].
  - destruct (op_eq_skip o) as [Ho|Ho]; [intros _; exact (Hskip Ho)|].
    rewrite (skip_returned_ret_other _ _ _ _ _ _ Hsplit Ho). intros H. exact (Hge (k_skip c I H)).
  - apply min_reported_ret; [exact Hrep|]. intros m Hm. pose proof (k_rep c I m Hm). lia.
  - destruct (op_eq_skip o) as [->|Ho].
    + intros _. left. cbn [skip_returned]. rewrite Hsplit. reflexivity.
    + apply (sk_keep ts' [ERet t r d]); [|reflexivity].
      intros Hp. rewrite Hp in Hres. exact (Ho (call_go _ _ _ Hres)).
  - rewrite all_rets_ret, Hev. apply (k_evs c I).
  - intros Hnp. apply orb_false_iff in Hnp. destruct Hnp as [Hp1 Hp2].
    apply (gap_perm _ _ _ (Permutation_sym Ph)), G; assumption.
  - cbn [taken_all dropped_all]. destruct (e_owning e).
    + destruct Hl as [Pl Tl]. apply (tiling_perm _ _ (ldelta ++ led c)); [|exact Tl].
      symmetry. rewrite led_base_perm. apply accs_move; [exact Hin|]. rewrite app_nil_r. exact Pl.
    + subst d. exact Hl0.
Qed.

(** a return that takes nothing new from the source: at most it hands back what the loop held *)
Lemma kinv_ret_same o older sh' l r :
  pend_call t (c_trace c) = Some (o, older) ->
  frontier sh' = frontier (c_sh c) ->
  (is_end r && can_end o = true -> e_len e <= s_c sh') ->
  (o = Skip -> e_len e <= s_c sh') ->
  (forall m, len_answer r = Some (Some m) -> e_len e - frontier sh' <= m) ->
  ev_all t r [] (c_trace c) = true ->
  Permutation (res_cover e r) (acc_iv (c_pool c t)) -> res_taken e r = res_cover e r ->
  KInv (commit c t sh' {| t_pc := PIdle; t_todo := t_todo (c_pool c t); t_buf := t_buf (c_pool c t); t_acc := [] |} l
               [ERet t r []]).
Proof.
  intros Hpend Hf Hend Hskip Hrep Hev Pc Htk.
  apply kinv_ret with o older [] []; try assumption; rewrite Hf.
  - reflexivity.
  - eapply tiling_weaken; [|exact (k_til c I)]. intros H. apply andb_true_iff in H. apply H.
  - intros _. exact (k_gap c I).
  - pose proof (k_led c I) as Hl. destruct (e_owning e); [|reflexivity].
    split; [|exact Hl]. rewrite Htk, app_nil_r. exact Pc.
Qed.

Lemma kinv_call o rest :
  t_pc (c_pool c t) = PIdle -> t_todo (c_pool c t) = o :: rest ->
  KInv (call e c t (c_pool c t) o rest).
Proof.
  intros Hpc Htodo.
  destruct (k_wf c I t) as (_ & Hops & Hbuf). rewrite Htodo in Hops.
  inversion Hops as [|? ? Hwo Hrest]; subst.
  assert (Hidle : is_idle (c_pool c t) = true) by (unfold is_idle; now rewrite Hpc).
  pose proof (acc_idle c t I Hidle) as Hacc.
  assert (Haccs : forall ts', t_acc ts' = [] -> accs (upd (c_pool c) t ts') = accs (c_pool c)).
  { intros ts' H. apply gather_ext. intros u _. unfold upd. destruct (Nat.eqb_spec u t) as [->|]; [|reflexivity].
    unfold acc_iv. rewrite H, Hacc. reflexivity. }
  assert (Hpcn : t_pc (c_pool c t) <> PSkip) by (rewrite Hpc; discriminate).
  pose proof (k_led c I) as Hled.
  unfold call. destruct (call_res e (c_pool c t) o) as [p|b r d] eqn:E.
  - pose proof (call_go _ _ _ E) as Hgo.
    set (ts' := {| t_pc := p; t_todo := rest; t_buf := t_buf (c_pool c t); t_acc := [] |}).
    assert (kpc_ok ts' /\ is_idle ts' = false) as [Hp Hni].
    { unfold kpc_ok, is_idle. cbn [ts' t_pc t_acc]. destruct p; try contradiction Hgo; (split; [|reflexivity]); try reflexivity.
      split; [apply Hgo; assumption|reflexivity]. }
    apply kinv_commit; try assumption; cbn [app t_acc t_buf]; rewrite ?Haccs by reflexivity.
    + repeat constructor.
    + unfold call_ok. rewrite Hni. exists o, (c_trace c). split; [apply pend_call_self_call|].
      eapply call_res_buf; [|exact E]. reflexivity.
    + rewrite n_pending_call. unfold pendZ. rewrite Hidle, Hni. lia.
    + intros bf Hbf. rewrite buf_size_call_nonbuf; [exact (k_buf c I t bf Hbf)|].
      intros n ->. unfold call_res in E. destruct (n =? 0); discriminate E.
    + intros o' older' _. apply acc_ok_nil.
    + eapply tiling_weaken; [apply clean_cons|exact (k_til c I)].
    + exact (k_end c I).
    + exact (k_skip c I).
    + exact (k_rep c I).
    + destruct (op_eq_skip o) as [->|Hns].
      * intros _. right. exists t. split; [exact Hin|]. rewrite upd_same. injection E as <-. reflexivity.
      * apply (sk_keep _ [ECall t o] Hpcn). destruct o; try reflexivity. contradiction Hns; reflexivity.
    + exact (k_evs c I).
    + exact (k_gap c I).
    + exact Hled.
  - destruct (call_ret_ok _ _ _ _ _ t (c_trace c) E Hwo Hbuf (k_buf c I t)) as ((Hnull & Hns & Hne & Htk & -> & Hb) & Hbs).
    destruct (null_facts o r Hnull) as (Hcov & Hla & _).
    assert (Hsplit : split_call t (ECall t o :: c_trace c) = Some (o, c_trace c)) by (apply pend_split, pend_call_self_call).
    apply kinv_commit; try assumption;
      cbn [app t_acc t_buf cov taken_all dropped_all drops_iv map has_panic]; rewrite ?Haccs, ?Hcov, ?Htk by reflexivity.
    + repeat constructor.
    + reflexivity.
    + apply pend_call_self_ret.
    + rewrite n_pending_ret, n_pending_call. unfold pendZ. rewrite Hidle. cbn [is_idle t_pc]. lia.
    + intros o' older' _. apply acc_ok_nil.
    + eapply tiling_weaken; [|exact (k_til c I)]. intros C. eapply clean_cons, clean_cons, C.
    + rewrite (end_reported_ret _ _ _ _ _ _ Hsplit), Hne. exact (k_end c I).
    + rewrite (skip_returned_ret_other _ _ _ _ _ _ Hsplit Hns). exact (k_skip c I).
    + rewrite min_reported_ret_none by exact Hla. exact (k_rep c I).
    + apply (sk_keep _ [ERet t r []; ECall t o] Hpcn). destruct o; try reflexivity. contradiction Hns; reflexivity.
    + rewrite all_rets_ret, (ev_all_null _ _ _ _ o (c_trace c)); [exact (k_evs c I)|apply pend_call_self_call|exact Hnull].
    + intros Hnp. apply orb_false_iff in Hnp. apply (k_gap c I), Hnp.
    + exact Hled.
Qed.

Lemma kinv_pull q :
  t_pc (c_pool c t) = PRes q ->
  s_c (c_sh c) + k_incr e q < W ->
  KInv (step e c t).
Proof.
  intros Hpc Hw.
  destruct (k_wf c I t) as (Hok & _). unfold kpc_ok in Hok. rewrite Hpc in Hok. destruct Hok as [Hq Hacc].
  pose proof (k_call c I t) as Hc. unfold call_ok, is_idle in Hc. rewrite Hpc in Hc.
  destruct Hc as (o & older & Hpend & Hres).
  destruct (call_go _ _ _ Hres) as (_ & Hcan & Hctx).
  pose proof (k_acc c I t o older Hpend) as Ha.
  pose proof (pend_suffix _ _ _ _ Hpend) as Hsuf.
  rewrite (step_res c t q Hpc), (k_pull_spec e q _ He Hq), (wadd_nowrap _ _ Hw). clear Hw.
  pose proof (pull_frontier q (c_sh c) Hq) as Hfr. cbv zeta in Hfr.
  set (b := s_c (c_sh c)) in *. set (sh' := with_c (c_sh c) (b + k_incr e q)) in *.
  assert (Hge : e_len e <= b -> e_len e <= s_c sh') by (cbn [sh' with_c s_c]; lia).
  assert (Hnskip : o = Skip -> e_len e <= s_c sh') by (intros ->; discriminate Hres).
  unfold finish, deliver.
  destruct (pull_spec e (q_n q) b) as [|b' rs cnt] eqn:PS.
  - (* the pull reports the end: the call returns without anything new *)
    destruct Hfr as [Hf0 Hlen].
    assert (Hend : forall r, is_end r && can_end o = true -> e_len e <= s_c sh').
    { intros r H. apply andb_true_iff in H. exact (Hge (Hlen (Hcan Hq (proj2 H)))). }
    destruct (q_ctx q) as [|l crash] eqn:Ctx; cbn [ret_ev].
    + destruct Hctx as (Hnull & _). specialize (Hacc eq_refl). rewrite (set_pc_idle _ Hacc).
      apply kinv_ret_same with o older; try assumption; try apply Hend; try reflexivity.
      * discriminate.
      * apply ev_all_null with o older; assumption.
      * unfold acc_iv. rewrite Hacc. constructor.
    + destruct Hctx as (cc & -> & Hcc).
      apply kinv_ret_same with (Loop l cc crash) older; try assumption; try apply Hend; try reflexivity.
      * discriminate.
      * apply ev_all_loop with l cc crash older (t_acc (c_pool c t)); auto.
      * cbn [res_cover res_taken]. rewrite map_rev. symmetry. apply Permutation_rev.
  - (* the pull obtains [b, b + cnt), [b] the counter: the frontier was [b], and advances by [cnt] *)
    apply pull_spec_got in PS. destruct PS as (-> & -> & Hc1 & Hcn & Hcl & Hshort). destruct Hfr as [Hf0 Hf1].
    assert (Hb : b < e_len e) by lia.
    assert (Hnst : stopped older = false).
    { destruct (stopped older) eqn:E; [|reflexivity]. pose proof (stopped_len (stopped_suffix _ _ Hsuf E)). lia. }
    assert (Hcold : iv_maxhi (cov e older) <= b).
    { rewrite <- Hf0. etransitivity; [apply cov_suffix_maxhi, Hsuf|apply cov_below]. }
    assert (Hmono : frontier (c_sh c) <= frontier sh') by (rewrite Hf0, Hf1; apply N.le_add_r).
    pose proof (k_til c I) as T0. pose proof (k_gap c I) as G0. pose proof (k_led c I) as L0.
    rewrite Hf0 in T0, G0, L0.
    destruct (q_ctx q) as [|l crash] eqn:Ctx.
    + specialize (Hacc eq_refl).
      destruct Hctx as (_ & Hnl & Hnh & Hnt & Hop).
      destruct (deliver_top_got (c_pool c t) q b cnt) as (r & d & -> & Hne & Hnp & Hla & Hidx & Hchk & took & Htk & Hcov & Hdl);
        try assumption.
      cbn [ret_ev]. rewrite (set_pc_idle _ Hacc).
      apply kinv_ret with o older ((if took =? 0 then [] else [(b, took)]) ++ [(b + took, cnt - took)]) (led_split b took cnt);
        try assumption; rewrite ?Hf1.
      * rewrite Hne. discriminate.
      * rewrite Hla. discriminate.
      * apply ev_all_pull with o older; try assumption; rewrite ?Hcov.
        -- destruct o; try reflexivity.
           ++ destruct Hop as [<- Hm]. rewrite (Hchk k (or_introl Hm)). apply orb_true_r.
           ++ destruct Hop as (bf & Hbf & Hn & Hm).
              rewrite <- (buf_size_pend _ _ _ _ Hpend) by discriminate.
              rewrite (proj1 (k_buf c I t bf Hbf)), <- Hn. apply (Hchk k (or_intror Hm)).
        -- apply increasing_split.
        -- apply all_above_split. assumption.
        -- rewrite Hnst. discriminate.
        -- destruct o as [| | | | |l0 c0 cr0| | |]; try reflexivity. contradiction (Hnl l0 c0 cr0); reflexivity.
      * rewrite Hcov. unfold acc_iv. rewrite Hacc, app_nil_r. reflexivity.
      * rewrite Hnp. apply tiling_extend_split; assumption.
      * intros _ Hnp0. apply gap_extend; [exact (G0 Hnp0)|exact Hb|apply iv_total_split, Htk|apply iv_maxhi_split; assumption].
      * destruct (e_owning e); [|exact Hdl]. split; [|apply tiling_extend_led; assumption].
        rewrite Hdl. unfold acc_iv. rewrite Hacc, app_nil_r. reflexivity.
    + (* inside a loop: the closure is invoked on the chunk, or on its elements up to the one at which it panics *)
      destruct Hctx as (cc & -> & Hcc). unfold deliver_loop.
      destruct (loop_invoke_cases l crash (total_cnt (t_acc (c_pool c t))) b cnt) as (inv & pan & Eli & Hi1 & Hi2 & Hinv);
        try assumption. rewrite Eli. clear Hcn Hshort.
      assert (Hab : iv_maxhi (map (run_iv e) (t_acc (c_pool c t))) <= b) by (rewrite <- Hf0; apply acc_below).
      destruct pan as [used|]; cbn [ret_ev].
      * (* the closure panics: the loop returns *)
        destruct Hinv as (Hu1 & Hu2 & Hinv).
        apply kinv_ret with (Loop l cc crash) older [(b, used)] (led_split b used cnt); try assumption; rewrite ?Hf1;
          try discriminate.
        -- apply ev_all_loop with l cc crash older (rev inv ++ t_acc (c_pool c t)); try assumption.
           ++ apply acc_ok_more with b used; assumption.
           ++ right. split; [reflexivity|]. intros ->. discriminate Eli.
        -- cbn [res_cover res_taken]. rewrite <- Permutation_rev, map_app, map_rev, Hinv. reflexivity.
        -- apply tiling_jump with (b + used); [lia|]. apply tiling_extend, (tiling_unclean _ _ _ T0).
        -- destruct (e_owning e) eqn:Ho; [|apply not_owning_drops_after, Ho]. split; [|apply tiling_extend_led; assumption].
           cbn [res_taken]. rewrite <- Permutation_rev, drops_after_one, Ho, map_app, map_rev, Hinv.
           unfold led_split. destruct (N.eqb_spec used 0); [lia|]. apply perm_skip, Permutation_app_comm.
      * (* the loop goes on *)
        assert (Ph : forall base, Permutation (base ++ accs (upd (c_pool c) t {| t_pc := PRes q; t_todo := t_todo (c_pool c t); t_buf := t_buf (c_pool c t); t_acc := rev inv ++ t_acc (c_pool c t) |}))
                                        ([(b, cnt)] ++ base ++ accs (c_pool c))).
        { intros base. apply (accs_move _ _ _ [] [(b, cnt)] base Hin). unfold acc_iv. cbn [t_acc]. rewrite map_app, map_rev, Hinv. reflexivity. }
        apply kinv_commit; try assumption; cbn [app t_acc t_buf t_todo]; rewrite ?Hf1.
        -- constructor.
        -- split; [exact Hq|]. rewrite Ctx. discriminate.
        -- apply (k_wf c I t).
        -- apply (k_wf c I t).
        -- exists (Loop l cc crash), older. split; [exact Hpend|].
           eapply call_res_buf; [|exact Hres]. reflexivity.
        -- unfold pendZ, is_idle. cbn [t_pc]. rewrite Hpc. lia.
        -- exact (k_buf c I t).
        -- intros o' older' E. rewrite Hpend in E. injection E as <- <-. apply acc_ok_more with b cnt; assumption.
        -- apply (tiling_perm _ _ _ _ (Permutation_sym (Ph _))), tiling_extend, T0.
        -- intros H. exact (Hge (k_end c I H)).
        -- intros H. exact (Hge (k_skip c I H)).
        -- intros m Hm. pose proof (k_rep c I m Hm). lia.
        -- apply (sk_keep _ []); [rewrite Hpc; discriminate|reflexivity].
        -- exact (k_evs c I).
        -- intros Hnp0. apply (gap_perm _ _ _ (Permutation_sym (Ph _))), gap_extend; [exact (G0 Hnp0)|exact Hb|apply N.add_0_r|].
           cbn [iv_maxhi snd]. unfold iv_hi. cbn [fst snd]. destruct (N.eqb_spec cnt 0); lia.
        -- destruct (e_owning e); [|exact L0].
           apply (tiling_perm _ _ _ _ (Permutation_sym (Ph _))), tiling_extend, L0.
Qed.

(** skip_to_end returns, the counter at or beyond the length; in the ledger, the rest of the source is destroyed *)
Lemma kinv_skip_ret v l d :
  t_pc (c_pool c t) = PSkip -> e_len e <= v ->
  (if e_owning e then drops_iv d = led_split (frontier (c_sh c)) 0 (e_len e - frontier (c_sh c)) else d = []) ->
  KInv (commit c t (with_c (c_sh c) v) (set_pc (c_pool c t) PIdle) l [ERet t RUnit d]).
Proof.
  intros Hpc Hv Hd.
  destruct (k_wf c I t) as (Hacc & _). unfold kpc_ok in Hacc. rewrite Hpc in Hacc.
  pose proof (k_call c I t) as Hc. unfold call_ok, is_idle in Hc. rewrite Hpc in Hc.
  destruct Hc as (o & older & Hpend & Hres). assert (o = Skip) as -> by exact (call_go _ _ _ Hres).
  assert (Hf : frontier (with_c (c_sh c) v) = e_len e) by (unfold frontier, with_c; cbn [s_c]; lia).
  assert (Hf0 : frontier (c_sh c) <= e_len e) by (unfold frontier; lia).
  rewrite (set_pc_idle _ Hacc).
  apply kinv_ret with Skip older [] (led_split (frontier (c_sh c)) 0 (e_len e - frontier (c_sh c))); try assumption;
    rewrite ?Hf; try discriminate.
  - exact Hf0.
  - intros _. exact Hv.
  - apply ev_all_null with Skip older; [exact Hpend|reflexivity].
  - unfold acc_iv. rewrite Hacc. constructor.
  - unfold clean. rewrite (split_call_has_skip t _ older (pend_split _ _ _ Hpend)). apply tiling_jump with (frontier (c_sh c)); [exact Hf0|].
    apply (tiling_unclean _ _ _ (k_til c I)).
  - intros _ Hnp. split; [exact (proj1 (k_gap c I Hnp))|]. intros H. contradiction (N.lt_irrefl _ H).
  - pose proof (k_led c I) as L0. destruct (e_owning e); [|exact Hd]. split.
    + rewrite Hd. unfold acc_iv. rewrite Hacc, app_nil_r. reflexivity.
    + replace (e_len e) with (frontier (c_sh c) + (e_len e - frontier (c_sh c))) at 1 by lia.
      apply tiling_extend_led; [lia|exact L0].
Qed.

Lemma kinv_skip :
  t_pc (c_pool c t) = PSkip ->
  match e_kind e with KVec | KArray => s_c (c_sh c) + e_len e < W | _ => True end ->
  KInv (step e c t).
Proof.
  intros Hpc Hw. rewrite (step_skip c t Hpc).
  assert (Ho : e_owning e = true \/ e_owning e = false) by (destruct (e_owning e); auto).
  destruct Ho as [Ho|Ho]; rewrite Ho.
  - assert (Hw' : s_c (c_sh c) + e_len e < W) by (destruct (owning_kind Ho) as [K|K]; rewrite K in Hw; exact Hw).
    rewrite (wadd_nowrap _ _ Hw').
    apply kinv_skip_ret; try assumption; try lia. rewrite Ho. unfold pull_spec, got, frontier.
    destruct (N.ltb_spec (s_c (c_sh c)) (e_len e)) as [Hlt|Hge]; cbn [andb].
    + destruct (N.ltb_spec 0 (e_len e)); [|lia]. rewrite drops_after_one, Ho.
      rewrite (N.min_l (s_c (c_sh c))), (N.min_r (e_len e)) by lia. reflexivity.
    + replace (e_len e - N.min (s_c (c_sh c)) (e_len e)) with 0 by lia. reflexivity.
  - apply kinv_skip_ret; try assumption; try lia. rewrite Ho. reflexivity.
Qed.

Lemma others_idle : is_idle (c_pool c t) = false -> n_pending (c_trace c) = 1%Z ->
  forall u, u <> t -> is_idle (c_pool c u) = true.
Proof.
  intros Hni Hp u Hu. destruct (in_dec Nat.eq_dec u L) as [HuL|HuL]; [|apply (k_out c I); assumption].
  rewrite (k_pend c I) in Hp. exact (one_pending (c_pool c) L t NDL Hin Hni Hp u HuL Hu).
Qed.

(** a query called when nothing else was pending, and answered at once, sees what has not been delivered:
    the other threads are idle, so no loop holds anything, and the trace [older] before the call
    accounts for the whole frontier *)
Lemma quiescent_rest o older :
  c_trace c = ECall t o :: older -> o <> Skip -> t_acc (c_pool c t) = [] ->
  n_pending older = 0%Z -> has_panic older = false ->
  e_len e - frontier (c_sh c) = if skip_returned older then 0 else e_len e - iv_total (cov e older).
Proof.
  intros Htr Hos Hacc Gn Gp.
  assert (Hni : is_idle (c_pool c t) = false).
  { pose proof (k_call c I t) as Hc. unfold call_ok in Hc. rewrite Htr, pend_call_self_call in Hc.
    destruct (is_idle (c_pool c t)); [discriminate Hc|reflexivity]. }
  assert (Hoth : forall u, u <> t -> is_idle (c_pool c u) = true).
  { apply (others_idle Hni). rewrite Htr, n_pending_call. lia. }
  assert (Hhs : has_skip (c_trace c) = has_skip older).
  { rewrite Htr. destruct o; try reflexivity. contradiction Hos; reflexivity. }
  destruct (skip_returned older) eqn:Hsr.
  - pose proof (k_skip c I) as H. rewrite Htr in H. specialize (H Hsr). unfold frontier. lia.
  - destruct (has_skip older) eqn:Ehs.
    + (* a skip has been called and has not returned: impossible, nothing else is pending *)
      destruct (k_sk c I) as [H|(u & Hu & Hpu)]; [congruence|rewrite Htr in H; cbn [skip_returned] in H; congruence|].
      destruct (Nat.eq_dec u t) as [->|Hut].
      * pose proof (k_call c I t) as Hc. unfold call_ok, is_idle in Hc. rewrite Hpu, Htr, pend_call_self_call in Hc.
        destruct Hc as (o' & older' & E & Hres). injection E as <- <-. contradiction (Hos (call_go _ _ _ Hres)).
      * pose proof (Hoth u Hut) as Hi. unfold is_idle in Hi. rewrite Hpu in Hi. discriminate.
    + assert (Hcl : clean (c_trace c) = true) by (unfold clean; rewrite Hhs, Htr; cbn [has_panic]; rewrite Gp; reflexivity).
      pose proof (tl_total _ _ _ (k_til c I) Hcl) as Ht. unfold hist, accs in Ht.
      rewrite gather_nil, app_nil_r, Htr in Ht; [cbn [cov] in Ht; lia|].
      intros u _. unfold acc_iv. destruct (Nat.eq_dec u t) as [->|Hu]; [rewrite Hacc; reflexivity|].
      rewrite (acc_idle c u I (Hoth u Hu)). reflexivity.
Qed.

Lemma kinv_len hm :
  t_pc (c_pool c t) = PLen hm -> KInv (step e c t).
Proof.
  intros Hpc. rewrite (step_len c t hm Hpc).
  destruct (k_wf c I t) as (Hacc & _). unfold kpc_ok in Hacc. rewrite Hpc in Hacc.
  pose proof (k_call c I t) as Hc. unfold call_ok, is_idle in Hc. rewrite Hpc in Hc.
  destruct Hc as (o & older & Hpend & Hres).
  pose proof (pend_suffix _ _ _ _ Hpend) as Hsuf.
  set (n := k_len e (s_c (c_sh c))).
  assert (Hn : n = e_len e - frontier (c_sh c)).
  { unfold n, k_len, frontier. destruct (N.ltb_spec (s_c (c_sh c)) (e_len e)); lia. }
  assert (Hstop : stopped older = true -> n = 0).
  { intros H. pose proof (stopped_len (stopped_suffix _ _ Hsuf H)). unfold frontier in Hn. lia. }
  assert (o = if hm then HasMore else TryLen) as Ho by exact (call_go _ _ _ Hres).
  assert (Hos : o <> Skip) by (intros ->; discriminate Hres).
  rewrite (set_pc_idle _ Hacc).
  apply kinv_ret_same with o older; try assumption; try reflexivity; rewrite ?len_answer_len_res, ?res_cover_len_res.
  - destruct hm; discriminate.
  - contradiction.
  - intros m E. injection E as <-. lia.
  - pose proof (pend_split _ _ _ Hpend) as Hs.
    apply ev_all_intro; unfold ev_C02, ev_C03, ev_C04, ev_C05, ev_C06, ev_C12, delivers_nothing;
      rewrite ?Hs, ?res_cover_len_res, ?Ho; try (destruct hm; reflexivity).
    + destruct (end_reported older) eqn:E; [|reflexivity].
      rewrite Hstop by (unfold stopped; rewrite E; reflexivity). destruct hm; reflexivity.
    + destruct (skip_returned older) eqn:E; [|reflexivity].
      rewrite Hstop by (unfold stopped; rewrite E, orb_true_r; reflexivity). destruct hm; reflexivity.
    + (* not above an earlier answer; exact, when the query is quiescent *)
      apply ev_C11_len with o older; [exact Hs| |].
      * intros Gn Htr Gp. rewrite knows_len_known, <- (quiescent_rest o older Htr Hos Hacc Gn Gp), <- Hn, N.eqb_refl.
        split; [reflexivity|]. intros Es. rewrite Hstop; [reflexivity|].
        unfold stopped. rewrite (end_strong_end _ Es). reflexivity.
      * intros n' m E Em. injection E as <-. destruct (min_reported_suffix _ _ _ Hsuf Em) as (m' & Em' & Hle).
        pose proof (k_rep c I m' Em'). lia.
  - unfold acc_iv. rewrite Hacc. constructor.
  - destruct hm; reflexivity.
Qed.

End Step.

Definition known_pc (p : pc) : bool :=
  match p with PIdle | PRes _ | PSkip | PLen _ => true | _ => false end.

Definition step_nowrap (c : cfg) (t : tid) : Prop :=
  match t_pc (c_pool c t) with
  | PRes q => s_c (c_sh c) + k_incr e q < W
  | PSkip => match e_kind e with KVec | KArray => s_c (c_sh c) + e_len e < W | _ => True end
  | _ => True
  end.

Lemma kinv_step c t : KInv c -> In t L -> step_nowrap c t -> KInv (step e c t).
Proof using He Hk Hown NDL.
  intros I Hin Hw. unfold step_nowrap in Hw.
  destruct (k_wf c I t) as (Hok & _). unfold kpc_ok in Hok.
  destruct (t_pc (c_pool c t)) as [|q| | | | | | | | |hm|] eqn:Hpc; try contradiction.
  - destruct (t_todo (c_pool c t)) as [|o rest] eqn:Htodo.
    + rewrite step_idle_nil by assumption. exact I.
    + rewrite (step_idle_call e c t o rest) by assumption. apply kinv_call; assumption.
  - apply kinv_pull with q; assumption.
  - apply kinv_skip; assumption.
  - apply kinv_len with hm; assumption.
Qed.

Lemma step_labels_suffix c t : nowrap (c_labels (step e c t)) -> nowrap (c_labels c).
Proof using.
  intros H. destruct (step_history e c t) as (_ & ls & _ & Hl). rewrite Hl in H. apply Forall_app in H. apply H.
Qed.

Lemma step_labels c t : nowrap (c_labels (step e c t)) -> step_nowrap c t.
Proof using Hk.
  intros Hn. unfold step_nowrap.
  destruct (t_pc (c_pool c t)) as [|q| | | | | | | | | |] eqn:Hpc; try exact I.
  - rewrite (step_res c t q Hpc), finish_labels in Hn. exact (Forall_inv Hn).
  - unfold step in Hn. rewrite Hpc in Hn. destruct kind_cases as [K|[K|[K|K]]]; rewrite K in Hn |- *; try exact I;
      destruct (k_fetch_n e (e_len e) (s_c (c_sh c))) as [[|]|]; apply Forall_inv in Hn; cbn [label_nowrap] in Hn; lia.
Qed.

Lemma kinv_step_run c t : In t L -> KInv c -> nowrap (c_labels (step e c t)) -> KInv (step e c t).
Proof. intros Hin I Hn. apply kinv_step; [exact I|exact Hin|apply (step_labels c t Hn)]. Qed.

Lemma n_pending_nonneg c : KInv c -> (0 <= n_pending (c_trace c))%Z.
Proof.
  intros I. rewrite (k_pend c I). apply sumZ_nonneg. intros t _. unfold pendZ. destruct (is_idle (c_pool c t)); lia.
Qed.

Lemma quiescent_accs c : KInv c -> n_pending (c_trace c) = 0%Z -> accs (c_pool c) = [].
Proof.
  intros I Hq. rewrite (k_pend c I) in Hq.
  apply gather_nil. intros t Ht. unfold acc_iv.
  rewrite (acc_idle c t I (none_pending (c_pool c) L Hq t Ht)). reflexivity.
Qed.

Lemma quiescent_gap c : KInv c -> n_pending (c_trace c) = 0%Z -> has_panic (c_trace c) = false ->
  iv_total (cov e (c_trace c)) = iv_maxhi (cov e (c_trace c)).
Proof.
  intros I Hq Hnp. destruct (k_gap c I Hnp) as [H _]. unfold hist in H.
  rewrite (quiescent_accs c I Hq), app_nil_r in H. exact H.
Qed.

(** one step appends at most one event, or the call and the return of an operation at once; only the
    trace after the whole step can be quiescent *)
Lemma prefix_step c t :
  KInv c -> KInv (step e c t) -> has_panic (c_trace (step e c t)) = false ->
  chk_C04_prefix e (c_trace c) = true -> chk_C04_prefix e (c_trace (step e c t)) = true.
Proof.
  intros I I' Hnp Hc.
  assert (Hq : (if (n_pending (c_trace (step e c t)) =? 0)%Z
                then iv_total (cov e (c_trace (step e c t))) =? iv_maxhi (cov e (c_trace (step e c t))) else true) = true).
  { destruct (Z.eqb_spec (n_pending (c_trace (step e c t))) 0) as [Hz|Hz]; [|reflexivity].
    apply N.eqb_eq, quiescent_gap; assumption. }
  destruct (step_commit e c t) as [E|(ts & l & evs & _ & Hev & E)]; rewrite E in *; [exact Hc|].
  cbn [commit c_trace] in *. destruct Hev as [->|[(ev & -> & _)|(r & d & o & ->)]]; cbn [app chk_C04_prefix] in *.
  - exact Hc.
  - rewrite Hq, Hc. reflexivity.
  - rewrite Hq, Hc, n_pending_call. pose proof (n_pending_nonneg c I).
    destruct (Z.eqb_spec (n_pending (c_trace c) + 1) 0); [lia|]. reflexivity.
Qed.

Lemma kinv_init progs :
  (forall t, Forall wf_op (progs t)) -> KInv (init progs).
Proof.
  intros Hp.
  assert (Ha : accs (c_pool (init progs)) = []) by (apply gather_nil; reflexivity).
  assert (Hf : frontier (c_sh (init progs)) = 0) by apply N.min_l, N.le_0_l.
  split; unfold hist, led; rewrite ?Ha, ?Hf; cbn [init c_pool c_trace c_sh init_ts]; try discriminate; try reflexivity.
  - intros t. unfold kpc_ok. cbn [init_ts t_pc t_acc t_todo t_buf wf_buf]. auto.
  - symmetry. clear. induction L as [|a l IH]; cbn [sumZ]; [reflexivity|]. rewrite IH. reflexivity.
  - apply tiling_empty.
  - intros _. split; reflexivity.
  - destruct (e_owning e); [apply tiling_empty|reflexivity].
Qed.

Theorem kinv_exec progs sched :
  (forall t, Forall wf_op (progs t)) ->
  Forall (fun t => In t L) sched ->
  nowrap (c_labels (exec e (init progs) sched)) ->
  KInv (exec e (init progs) sched).
Proof.
  intros Hp Hs. apply (exec_inv e label_nowrap (fun t => In t L) KInv kinv_step_run); [exact Hs|apply kinv_init, Hp].
Qed.

Theorem prefix_exec progs sched :
  (forall t, Forall wf_op (progs t)) ->
  Forall (fun t => In t L) sched ->
  nowrap (c_labels (exec e (init progs) sched)) ->
  has_panic (c_trace (exec e (init progs) sched)) = false ->
  chk_C04_prefix e (c_trace (exec e (init progs) sched)) = true.
Proof.
  intros Hp Hs Hw.
  apply (exec_inv e label_nowrap (fun t => In t L)
           (fun c => KInv c /\ (has_panic (c_trace c) = false -> chk_C04_prefix e (c_trace c) = true)));
    [|exact Hs|split; [apply kinv_init, Hp|reflexivity]|exact Hw].
  intros c t Hin [I Hc] Hn. pose proof (kinv_step_run c t Hin I Hn) as I'. split; [exact I'|].
  intros Hnp. apply prefix_step; try assumption. apply Hc.
  destruct (step_history e c t) as (evs & _ & Et & _). rewrite Et in Hnp. exact (has_panic_app_false _ _ Hnp).
Qed.

Lemma cov_final f r d tr : cov e (EFinal f r d :: tr) = cov e tr.
Proof. reflexivity. Qed.

Lemma seq_ok c k rs took dd :
  KInv c -> n_pending (c_trace c) = 0%Z ->
  took = N.min k (e_len e - frontier (c_sh c)) ->
  rs = nz_run None (val_of e (frontier (c_sh c))) took ->
  chk_C10 e (EFinal (FIntoSeq k) (RSeq rs took) dd :: c_trace c) = true.
Proof.
  intros I Hq -> ->. cbn [chk_C10].
  destruct (has_panic (c_trace c)) eqn:Hnp; [reflexivity|].
  pose proof (quiescent_gap c I Hq Hnp) as Hg. pose proof (cov_below c I) as Hcb.
  set (m := frontier (c_sh c)) in *.
  assert (Hm : m <= e_len e) by (unfold m, frontier; lia).
  unfold nz_run. destruct (has_skip (c_trace c)) eqn:Hs.
  - destruct (N.eqb_spec (N.min k (e_len e - m)) 0) as [Hz|Hz]; [reflexivity|].
    cbn [mk_run r_cnt r_val]. rewrite N.eqb_refl, pos_of_val_of. cbn [andb].
    apply andb_true_iff. split; [apply N.leb_le; lia|].
    destruct (N.ltb_spec (N.min k (e_len e - m)) k); [apply N.eqb_eq|apply N.leb_le]; lia.
  - assert (Hcl : clean (c_trace c) = true) by (unfold clean; rewrite Hs, Hnp; reflexivity).
    pose proof (tl_total _ _ _ (k_til c I) Hcl) as Ht. unfold hist in Ht.
    rewrite (quiescent_accs c I Hq), app_nil_r in Ht. fold m in Ht. rewrite Ht, N.eqb_refl. cbn [andb].
    destruct (N.eqb_spec (N.min k (e_len e - m)) 0) as [Hz|Hz]; [reflexivity|].
    cbn [mk_run r_cnt r_val]. rewrite !N.eqb_refl. reflexivity.
Qed.

Theorem final_C10 c t k :
  KInv c -> n_pending (c_trace c) = 0%Z ->
  chk_C10 e (c_trace (final_step e c t (FIntoSeq k))) = true.
Proof.
  intros I Hq. unfold final_step, seq_res. fold (frontier (c_sh c)).
  destruct kind_cases as [K|[K|[K|K]]]; rewrite K; cbn [c_trace]; try (apply seq_ok; try assumption; reflexivity).
  pose proof He as [Hlen Hr]. rewrite K in Hr.
  assert (Hm : frontier (c_sh c) <= e_len e) by (unfold frontier; lia).
  rewrite add_u_ok by lia. cbn [c_trace]. apply seq_ok; try assumption.
  - destruct (N.ltb_spec (e_start e + frontier (c_sh c)) (e_end e)); lia.
  - unfold val_of. rewrite K. reflexivity.
Qed.

Theorem run_C08 c : KInv c -> chk_C08 e (c_trace c) = true.
Proof.
  intros I. unfold chk_C08. pose proof (k_led c I) as Hl.
  destruct (e_owning e); [|rewrite Hl; reflexivity].
  unfold led in Hl. pose proof (tl_disj _ _ _ Hl) as Hd. pose proof (tl_within _ _ _ Hl) as Hw.
  rewrite pairwise_disj_app, !andb_true_iff in Hd. rewrite iv_within_app, andb_true_iff in Hw.
  rewrite (proj1 (proj1 Hd)), (iv_within_mono (frontier (c_sh c)) (e_len e)), (k_nofin c I); [reflexivity|unfold frontier; lia|apply Hw].
Qed.

Lemma drops_run_iv v cnt : e_owning e = true ->
  drops_iv (drops_of_run e v cnt) = if 0 <? cnt then [(pos_of e v, cnt)] else [].
Proof using. intros Ho. unfold drops_of_run. rewrite Ho. destruct (0 <? cnt); reflexivity. Qed.

(** after the end of life every element was moved out or destroyed exactly once *)
Lemma final_led c f r d took :
  KInv c -> n_pending (c_trace c) = 0%Z -> e_owning e = true ->
  took <= e_len e - frontier (c_sh c) ->
  res_taken e r ++ drops_iv d = led_split (frontier (c_sh c)) took (e_len e - frontier (c_sh c)) ->
  chk_C08 e (EFinal f r d :: c_trace c) = true.
Proof.
  intros I Hq Ho Htk Hrd. unfold chk_C08. rewrite Ho.
  pose proof (k_led c I) as Hl. rewrite Ho in Hl. unfold led in Hl.
  rewrite (quiescent_accs c I Hq), app_nil_r in Hl.
  apply (tiling_extend_led _ _ _ _ Htk) in Hl. rewrite <- Hrd in Hl.
  replace (frontier (c_sh c) + (e_len e - frontier (c_sh c))) with (e_len e) in Hl by (unfold frontier; lia).
  apply (tiling_perm _ _ _ _ (Permutation_sym (led_base_perm _ _ _ _))) in Hl.
  cbn [taken_all dropped_all has_final n_pending andb].
  rewrite (tl_disj _ _ _ Hl), (tl_within _ _ _ Hl), Hq, (tl_total _ _ _ Hl eq_refl). apply N.eqb_refl.
Qed.

(** what the two ways of ending the iterator's life take and destroy, from the frontier on *)
Lemma drop_led cv : e_owning e = true ->
  drops_iv (if cv <? e_len e then drops_of_run e cv (e_len e - cv) else [])
  = led_split (N.min cv (e_len e)) 0 (e_len e - N.min cv (e_len e)).
Proof using Hown Hk.
  intros Ho. unfold led_split. cbn [N.eqb app]. rewrite N.add_0_r, N.sub_0_r.
  destruct (N.ltb_spec cv (e_len e)); [rewrite N.min_l by lia|rewrite N.min_r, N.sub_diag by lia; reflexivity].
  rewrite drops_run_iv by assumption. unfold pos_of. destruct (owning_kind Ho) as [K|K]; rewrite K; reflexivity.
Qed.

Lemma seq_led m took cnt : e_owning e = true ->
  res_taken e (RSeq (nz_run None (val_of e m) took) took) ++ drops_iv (drops_of_run e (val_of e (m + took)) (cnt - took))
  = led_split m took cnt.
Proof using.
  intros Ho. cbn [res_taken]. unfold led_split, nz_run. rewrite drops_run_iv, pos_of_val_of by assumption.
  destruct (took =? 0); [reflexivity|]. cbn [map]. unfold run_iv, mk_run. cbn [r_val r_cnt]. rewrite pos_of_val_of. reflexivity.
Qed.

Theorem final_C08 c t f :
  KInv c -> n_pending (c_trace c) = 0%Z ->
  chk_C08 e (c_trace (final_step e c t f)) = true.
Proof.
  intros I Hq.
  assert (Ho : e_owning e = true \/ e_owning e = false) by (destruct (e_owning e); auto).
  destruct Ho as [Ho|Ho].
  - unfold final_step, seq_res. fold (frontier (c_sh c)).
    destruct (owning_kind Ho) as [K|K]; rewrite K; destruct f as [|k]; cbn [c_trace].
    1,3: apply final_led with 0; try assumption; [lia|apply drop_led, Ho].
    all: apply final_led with (N.min k (e_len e - frontier (c_sh c))); try assumption; [lia|apply seq_led, Ho].
  - pose proof (k_led c I) as Hl. rewrite Ho in Hl.
    unfold chk_C08. rewrite Ho. unfold final_step, seq_res.
    destruct kind_cases as [K|[K|[K|K]]]; try (rewrite Hown, K in Ho; discriminate Ho); rewrite K;
      destruct f as [|k]; try destruct (add_u _ _ _); cbn [c_trace dropped_all drops_iv map app]; rewrite Hl; reflexivity.
Qed.

End Known.
