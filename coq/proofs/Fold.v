(** * C12, last clause: combining the per-thread results of fold with an associative and commutative
      operation and its neutral element gives the sequential fold of the source.

    The per-thread results are folds over what each thread was handed; together these deliveries tile the
    source (C01); so the positions handed out are a permutation of [0, len), and a fold with a commutative
    monoid does not see the difference. *)
From Coq Require Import Lia ZArith List Permutation.
From OCI Require Import Machine Checkers.
From OCI.proofs Require Import Base Trace ArithOk InvKnown ChkKnown IterBase ChkIter ChkAll History.
Import ListNotations.
Open Scope N_scope.

Definition iv_positions (a : iv) : list N := map (fun k => fst a + N.of_nat k) (seq 0 (N.to_nat (snd a))).
Definition positions_of (l : list iv) : list N := flat_map iv_positions l.
Definition source_positions (len : N) : list N := iv_positions (0, len).

Lemma in_iv_positions a p : In p (iv_positions a) <-> fst a <= p < fst a + snd a.
Proof.
  unfold iv_positions. rewrite in_map_iff. split.
  - intros (k & <- & Hk). apply in_seq in Hk. lia.
  - intros H. exists (N.to_nat (p - fst a)). split; [lia|]. apply in_seq. lia.
Qed.

Lemma nodup_iv_positions a : NoDup (iv_positions a).
Proof.
  apply FinFun.Injective_map_NoDup; [|apply seq_NoDup].
  intros x y H. lia.
Qed.

Lemma length_iv_positions a : length (iv_positions a) = N.to_nat (snd a).
Proof. unfold iv_positions. rewrite map_length, seq_length. reflexivity. Qed.

Lemma length_positions_of l : length (positions_of l) = N.to_nat (iv_total l).
Proof.
  induction l as [|a l IH]; [reflexivity|]. unfold positions_of in *. cbn [flat_map iv_total].
  rewrite app_length, length_iv_positions. lia.
Qed.

Lemma in_positions_of l p : In p (positions_of l) <-> exists a, In a l /\ fst a <= p < fst a + snd a.
Proof.
  unfold positions_of. rewrite in_flat_map. split; intros (a & Ha & H); exists a; (split; [exact Ha|]); apply in_iv_positions; exact H.
Qed.

Lemma nodup_app {A} (a b : list A) : NoDup a -> NoDup b -> (forall x, In x a -> In x b -> False) -> NoDup (a ++ b).
Proof.
  induction a as [|x a IH]; intros Ha Hb Hd; [exact Hb|]. inversion Ha as [|? ? Hx Ha']; subst.
  constructor; [rewrite in_app_iff|apply IH]; firstorder.
Qed.

Lemma nodup_positions_of l : pairwise_disj l = true -> NoDup (positions_of l).
Proof.
  induction l as [|a l IH]; intros H; [constructor|].
  apply andb_true_iff in H. destruct H as [Hd Hp].
  apply nodup_app; [apply nodup_iv_positions|apply IH; exact Hp|].
  intros p Hp1 Hp2. apply in_iv_positions in Hp1. apply in_positions_of in Hp2. destruct Hp2 as (b & Hb & Hpb).
  rewrite disj_from_forall in Hd. specialize (Hd b Hb). unfold iv_disj, iv_hi in Hd.
  rewrite !orb_true_iff, !N.eqb_eq, !N.leb_le in Hd. lia.
Qed.

Lemma tiles_permutation len l : tiles len l = true -> Permutation (positions_of l) (source_positions len).
Proof.
  unfold tiles. rewrite !andb_true_iff, N.eqb_eq. intros [[Hd Hw] Ht].
  apply NoDup_Permutation_bis.
  - apply nodup_positions_of. exact Hd.
  - rewrite length_positions_of. unfold source_positions. rewrite length_iv_positions. cbn [snd]. lia.
  - intros p Hp. apply in_positions_of in Hp. destruct Hp as (a & Ha & Hpa).
    apply in_iv_positions. cbn [fst snd]. pose proof (in_within _ _ a Hw Ha) as H. unfold iv_hi in H. lia.
Qed.

Section Monoid.

Variable M : Type.
Variable op : M -> M -> M.
Variable unit_ : M.
Hypothesis op_assoc : forall a b c, op a (op b c) = op (op a b) c.
Hypothesis op_comm : forall a b, op a b = op b a.
Hypothesis op_unit : forall a, op unit_ a = a.

Definition mfold (l : list M) : M := fold_right op unit_ l.

Lemma mfold_app a b : mfold (a ++ b) = op (mfold a) (mfold b).
Proof.
  induction a as [|x a IH]; cbn [app mfold fold_right]; [symmetry; apply op_unit|].
  fold (mfold (a ++ b)). rewrite IH. apply op_assoc.
Qed.

Lemma mfold_perm a b : Permutation a b -> mfold a = mfold b.
Proof.
  induction 1 as [|x a b _ IH|x y a|a b c _ IH1 _ IH2]; cbn [mfold fold_right] in *.
  - reflexivity.
  - f_equal. exact IH.
  - rewrite !op_assoc. f_equal. apply op_comm.
  - congruence.
Qed.

Lemma mfold_parts {A} (g : A -> list M) (l : list A) : mfold (map (fun x => mfold (g x)) l) = mfold (concat (map g l)).
Proof.
  induction l as [|x l IH]; [reflexivity|]. cbn [map concat]. rewrite mfold_app, <- IH. reflexivity.
Qed.

End Monoid.

Lemma cov_split e L tr : NoDup L ->
  Forall (fun ev => exists u, In u L /\ ev_by u ev) tr ->
  Permutation (cov e tr) (gather (fun t => cov_of e t tr) L).
Proof.
  intros ND F. induction F as [|ev tr (u' & HuL & Hby) _ IH].
  - rewrite gather_nil by reflexivity. constructor.
  - destruct ev as [u o|u r d|f r d]; cbn [cov_of]; try exact IH. cbn [ev_by] in Hby. subst u'.
    destruct (gather_upd (fun t => cov_of e t tr) L u (res_cover e r ++ cov_of e u tr) ND HuL) as (rest & P1 & P2).
    rewrite (gather_ext (fun t => (if Nat.eqb u t then res_cover e r else []) ++ cov_of e t tr)
                        (upd (fun t => cov_of e t tr) u (res_cover e r ++ cov_of e u tr)) L).
    + rewrite P2, <- app_assoc. apply Permutation_app_head. rewrite IH. exact P1.
    + intros t' _. unfold upd. rewrite (Nat.eqb_sym u t'). destruct (Nat.eqb_spec t' u) as [->|]; reflexivity.
Qed.

Lemma positions_of_app a b : positions_of (a ++ b) = positions_of a ++ positions_of b.
Proof. apply flat_map_app. Qed.

Lemma positions_of_perm a b : Permutation a b -> Permutation (positions_of a) (positions_of b).
Proof. apply Permutation_flat_map. Qed.

Lemma positions_of_gather (f : tid -> list iv) L :
  positions_of (gather f L) = concat (map (fun t => positions_of (f t)) L).
Proof.
  unfold gather. induction L as [|a L IH]; [reflexivity|]. cbn [flat_map].
  rewrite positions_of_app, IH. reflexivity.
Qed.

(** ** the theorem: on a complete run (the end has been reported, nothing is pending, nobody skipped or
    panicked), whatever mix of loops and direct pulls delivered the elements, folding what each thread was
    handed and combining the per-thread results is the sequential fold of the source *)
Theorem fold_combination : forall e, src_env e -> fused e -> forall progs, wf_progs progs -> forall sched,
  nowrap (c_labels (exec e (init progs) sched)) ->
  let tr := c_trace (exec e (init progs) sched) in
  let L := nodup Nat.eq_dec sched in
  has_skip tr || has_panic tr = false ->
  end_reported tr = true -> n_pending tr = 0%Z ->
  forall (M : Type) (op : M -> M -> M) (unit_ : M) (f : N -> M),
  (forall a b c, op a (op b c) = op (op a b) c) -> (forall a b, op a b = op b a) -> (forall a, op unit_ a = a) ->
  mfold M op unit_ (map (fun t => mfold M op unit_ (map f (positions_of (cov_of e t tr)))) L) =
  mfold M op unit_ (map f (source_positions (e_len e))).
Proof.
  intros e He Hfu progs Hp sched Hnw tr L Hclean Hend Hq M op unit_ f Ha Hc Hu.
  pose proof (all_C01 e He Hfu progs Hp sched Hnw) as H1. fold tr in H1.
  cbn [check_prop] in H1. rewrite Hclean in H1. apply andb_true_iff in H1. destruct H1 as [_ Hnl].
  unfold chk_C01_noloss in Hnl. rewrite Hend, Hq in Hnl.
  pose proof (tiles_permutation _ _ Hnl) as Pt.
  destruct (events_belong_to_scheduled_threads e sched (init progs)) as (evs & Ht & Hby).
  rewrite app_nil_r in Ht. rewrite <- Ht in Hby.
  assert (Ps : Permutation (cov e tr) (gather (fun t => cov_of e t tr) L)).
  { apply cov_split; [apply NoDup_nodup|]. eapply Forall_impl; [|exact Hby].
    intros ev (u & Hin & Hev). exists u. split; [apply nodup_In; exact Hin|exact Hev]. }
  pose proof (positions_of_perm _ _ Ps) as Pp. rewrite positions_of_gather in Pp.
  rewrite (mfold_parts M op unit_ Ha Hu), <- (map_map (fun t => positions_of (cov_of e t tr)) (map f)), <- concat_map.
  apply (mfold_perm M op unit_ Ha Hc). apply Permutation_map.
  etransitivity; [symmetry; exact Pp|exact Pt].
Qed.
