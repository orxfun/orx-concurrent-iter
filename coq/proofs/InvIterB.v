(** * The wrapper over an arbitrary iterator: the completed flag, the end of the iteration, and the
      per-event checks (layer B, on top of layer A). *)
From Coq Require Import Lia ZArith Permutation.
From OCI Require Import Machine Checkers.
From OCI.proofs Require Import Base Trace ArithOk InvKnown IterBase IterProt InvIterA.
Open Scope N_scope.

(** the per-event parts of the checkers C05, C06 and C12: they hold for every wrapped iterator, fused or not *)
Definition ev_late (e : env) : tid -> res -> list drops -> list event -> bool :=
  fun t r d tl => ev_C05 e t r d tl && ev_C06 e t r d tl && ev_C12 t r d tl.

(** those of C02, C03 and C04 compare positions with indices: they need a fused wrapped iterator *)
Definition ev_pos (e : env) : tid -> res -> list drops -> list event -> bool :=
  fun t r d tl => ev_C02 e t r d tl && ev_C03 e t r d tl && ev_C04 e t r d tl.

Definition stopped2 (tr : list event) : bool := end_reported tr || skip_returned tr.

Lemma stopped2_suffix s tr : suffix s tr -> stopped2 s = true -> stopped2 tr = true.
Proof.
  unfold stopped2. rewrite !orb_true_iff. intros Hs [H|H].
  - left. exact (end_reported_suffix s tr Hs H).
  - right. exact (skip_returned_suffix s tr Hs H).
Qed.

(** the thread has not yet tested the completed flag for its current reservation, or (at its turn, [PChkT])
    it is about to test it once more *)
Definition before_gate (p : pc) : bool :=
  match p with PLdY _ _ | PSrc _ _ _ | PSetF _ _ _ | PPub _ _ _ | PUnw _ _ _ | PLen2 _ => false | _ => true end.

Section IterB.

Variable e : env.
Hypothesis Hk : e_kind e = KIter.
Variable L : list tid.
Hypothesis NDL : NoDup L.

(** a call made after the iteration was stopped will not take an element: the thread has still to test the
    completed flag (which is up); and its loop has handed nothing to its closure *)
Definition late_ok (tr : list event) (t : tid) (ts : tstate) : Prop :=
  match pend_call t tr with
  | Some (o, older) => stopped2 older = true -> before_gate (t_pc ts) = true /\ t_acc ts = []
  | None => True
  end.

(** the part that needs a fused wrapped iterator: the flag goes up for a reason *)
Record IInvBF (c : cfg) : Prop := {
  bf_f    : s_f (c_sh c) = true -> s_cur (c_sh c) = e_len e \/ skip_returned (c_trace c) = true \/ has_panic (c_trace c) = true;
  bf_evs  : all_rets (ev_pos e) (c_trace c) = true;
  bf_cs   : s_cur (c_sh c) <= s_c (c_sh c)
}.

(** the invariant of every wrapped iterator, fused or not: an end report or a returned skip_to_end
    means that the completed flag is up, and a call made after that never passes the test of the flag *)
Record IInvB (c : cfg) : Prop := {
  b_endf : end_reported (c_trace c) = true -> s_f (c_sh c) = true;
  b_skip : skip_returned (c_trace c) = true -> s_f (c_sh c) = true;
  b_nt   : forall t, late_ok (c_trace c) t (c_pool c t);
  b_pubf : forall t q b, t_pc (c_pool c t) = PPub q b [] -> s_f (c_sh c) = true;
  b_evs5 : all_rets (ev_late e) (c_trace c) = true;
  b_fu   : fused e -> IInvBF c
}.

Lemma b_f c : IInvB c -> fused e -> s_f (c_sh c) = true ->
  s_cur (c_sh c) = e_len e \/ skip_returned (c_trace c) = true \/ has_panic (c_trace c) = true.
Proof. intros I Hfu. apply (bf_f c (b_fu c I Hfu)). Qed.

Lemma b_cs c : IInvB c -> fused e -> s_cur (c_sh c) <= s_c (c_sh c).
Proof. intros I Hfu. apply (bf_cs c (b_fu c I Hfu)). Qed.

Lemma b_stop c older : IInvB c -> suffix older (c_trace c) -> stopped2 older = true -> s_f (c_sh c) = true.
Proof.
  intros I Hs H. apply (stopped2_suffix _ _ Hs), orb_true_iff in H.
  destruct H as [H|H]; [apply (b_endf c I H)|apply (b_skip c I H)].
Qed.

Lemma b_gate c t o older : IInvB c -> pend_call t (c_trace c) = Some (o, older) -> stopped2 older = true ->
  before_gate (t_pc (c_pool c t)) = true /\ t_acc (c_pool c t) = [].
Proof. intros I Hp. pose proof (b_nt c I t) as H. unfold late_ok in H. rewrite Hp in H. exact H. Qed.

Lemma past_gate c t o older : IInvB c -> pend_call t (c_trace c) = Some (o, older) ->
  before_gate (t_pc (c_pool c t)) = false -> stopped2 older = false.
Proof.
  intros I Hp Hg. destruct (stopped2 older) eqn:E; [|reflexivity].
  destruct (b_gate c t o older I Hp E) as [H _]. congruence.
Qed.

(** a length query reads the reserved counter only after it saw the flag down: no skip_to_end had returned
    when it was called *)
Lemma b_len2 c : IInvB c -> forall t hm o older, t_pc (c_pool c t) = PLen2 hm ->
  pend_call t (c_trace c) = Some (o, older) -> skip_returned older = false.
Proof.
  intros I t hm o older Hpc Hp. apply (orb_false_elim (end_reported older)).
  apply (past_gate c t o older I Hp). rewrite Hpc. reflexivity.
Qed.

Lemma iB_commit c t sh' ts' l evs :
  IInvB c -> Forall (ev_of t) evs ->
  (s_f (c_sh c) = true -> s_f sh' = true) ->
  (end_reported (evs ++ c_trace c) = true -> s_f sh' = true) ->
  (skip_returned (evs ++ c_trace c) = true -> s_f sh' = true) ->
  late_ok (evs ++ c_trace c) t ts' ->
  (forall q b, t_pc ts' = PPub q b [] -> s_f sh' = true) ->
  all_rets (ev_late e) (evs ++ c_trace c) = true ->
  (fused e -> IInvBF c ->
     (s_f sh' = true -> s_cur sh' = e_len e \/ skip_returned (evs ++ c_trace c) = true \/ has_panic (evs ++ c_trace c) = true) /\
     all_rets (ev_pos e) (evs ++ c_trace c) = true /\ s_cur sh' <= s_c sh') ->
  IInvB (commit c t sh' ts' l evs).
Proof.
  intros I Fev Sf Hend Hskip Hnt Hpubf Hevs HF. split; cbn [commit c_pool c_trace]; try assumption.
  - intros u. destruct (Nat.eq_dec u t) as [->|Hn]; [rewrite upd_same; exact Hnt|].
    rewrite upd_other by assumption. unfold late_ok. rewrite (pend_call_others t u evs _ Hn Fev). apply (b_nt c I u).
  - intros u q b. destruct (Nat.eq_dec u t) as [->|Hn]; [rewrite upd_same; apply Hpubf|].
    rewrite upd_other by assumption. intros H. apply Sf, (b_pubf c I u q b H).
  - intros Hfu. destruct (HF Hfu (b_fu c I Hfu)) as (H1 & H2 & H3). split; assumption.
Qed.

(** C02, C03, C04 for one return: the runs are true to their indices, a chunk keeps its contract, the
    positions are increasing and above everything delivered before the call *)
Lemma ev_pos_intro t r d tl o older :
  pend_call t tl = Some (o, older) ->
  forallb (run_idx_ok e) (res_runs r) = true ->
  match o with
  | Chunk n k => (n =? 0) || chunk_ok e n k r
  | BufNext k => match buf_size t older with Some c => chunk_ok e c k r | None => true end
  | _ => true
  end = true ->
  increasing (res_cover e r) = true ->
  all_above (iv_maxhi (cov e older)) (res_cover e r) = true ->
  ev_pos e t r d tl = true.
Proof.
  intros Hp H2 H3 H4 H4c.
  unfold ev_pos, ev_C02, ev_C03, ev_C04.
  rewrite (pend_split _ _ _ Hp), H2, H4, H4c, (cov_of_pend _ _ _ _ _ Hp).
  rewrite (all_above_mono _ _ _ (cov_of_maxhi e t older) H4c). rewrite andb_true_r. exact H3.
Qed.

(** C05, C06, C12 for one return: a call made after the iteration was stopped returns the end (or a panic,
    or a length of zero) and delivers nothing; a loop returns invocations of the shape of its kind *)
Lemma ev_late_intro t r d tl o older :
  pend_call t tl = Some (o, older) ->
  (stopped2 older = true ->
     (if can_end o then is_end r || is_panic r else true) = true /\ delivers_nothing e r = true /\ no_positive r = true /\
     match o, r with
     | HasMore, RMore HNo => true
     | HasMore, _ => false
     | TryLen, RLen (Some n) => n =? 0
     | TryLen, _ => false
     | _, _ => true
     end = true) ->
  match o with Loop l c cr => if c =? 0 then is_chunkzero r else loop_shape_ok l r && loop_panic_ok cr r | _ => true end = true ->
  ev_late e t r d tl = true.
Proof.
  intros Hp Hq H12. unfold ev_late, ev_C05, ev_C06, ev_C12. rewrite (pend_split _ _ _ Hp). rewrite H12.
  unfold stopped2 in Hq.
  destruct (end_reported older), (skip_returned older); try reflexivity;
    destruct (Hq eq_refl) as (-> & -> & HC & HD); rewrite ?HC, ?HD; reflexivity.
Qed.

Lemma ev_null t r d tl o older :
  pend_call t tl = Some (o, older) -> null_pair o r = true ->
  ev_late e t r d tl = true /\ ev_pos e t r d tl = true.
Proof.
  intros Hp Hn.
  destruct o; try discriminate Hn; destruct r; try discriminate Hn; try (destruct rs; try discriminate Hn);
    (split; [eapply ev_late_intro; [exact Hp|intros _; repeat split|]|eapply ev_pos_intro; [exact Hp|..]]; try reflexivity).
  - cbn. destruct (n =? 0); reflexivity.
  - apply orb_true_r.
  - destruct (buf_size t older); reflexivity.
  - destruct (buf_size t older); reflexivity.
  - cbn in Hn |- *. destruct (c =? 0); [discriminate Hn|reflexivity].
  - cbn in Hn |- *. destruct (c =? 0); [exact Hn|discriminate Hn].
Qed.

(** a step of thread [t] that reports nothing.  The flag never goes down.  While it is up [t] does not pass
    the test: the flag was down, or [t] was past the test already, or [t] is before it afterwards.  A thread
    that is about to publish nothing has put the flag up. *)
Lemma iB_silent c t sh' ts' l :
  IInvB c ->
  (s_f (c_sh c) = true -> s_f sh' = true) ->
  s_f (c_sh c) = false \/ before_gate (t_pc (c_pool c t)) = false \/
    before_gate (t_pc ts') = true /\ t_acc ts' = t_acc (c_pool c t) ->
  match t_pc ts' with PPub _ _ [] => s_f sh' = true | _ => True end ->
  (fused e -> (s_cur (c_sh c) = e_len e -> s_cur sh' = e_len e) /\
              (s_f sh' = true -> s_f (c_sh c) = true \/ s_cur sh' = e_len e) /\
              (s_cur (c_sh c) <= s_c (c_sh c) -> s_cur sh' <= s_c sh')) ->
  IInvB (commit c t sh' ts' l []).
Proof.
  intros I Sf Hg Hp HF.
  apply iB_commit; [exact I|constructor|exact Sf|..]; cbn [app].
  - intros H. apply Sf, (b_endf c I H).
  - intros H. apply Sf, (b_skip c I H).
  - unfold late_ok. destruct (pend_call t (c_trace c)) as [[o older]|] eqn:Hpe; [|exact I0].
    intros Hs. destruct (b_gate c t o older I Hpe Hs) as [G1 G2].
    pose proof (b_stop c older I (pend_suffix _ _ _ _ Hpe) Hs) as Hf.
    destruct Hg as [Hg|[Hg|[Hg1 Hg2]]]; [congruence|congruence|]. rewrite Hg2. auto.
  - intros q b E. rewrite E in Hp. exact Hp.
  - apply (b_evs5 c I).
  - intros Hfu BF. destruct (HF Hfu) as (Sc & Hf' & Hcs). split; [|split; [apply (bf_evs c BF)|exact (Hcs (bf_cs c BF))]].
    intros Hf. destruct (Hf' Hf) as [H|H]; [|left; exact H].
    destruct (bf_f c BF H) as [H1|H1]; [left; auto|right; exact H1].
Qed.

(** thread [t] returns from its pending call [o] with the result [r].  The flag is up afterwards if [r]
    reports the end or [o] is skip_to_end; when the wrapped iterator is fused a flag that goes up has a reason. *)
Lemma iB_ret c t sh' ts' l r d o older :
  IInvB c ->
  pend_call t (c_trace c) = Some (o, older) ->
  t_pc ts' = PIdle ->
  s_cur sh' = s_cur (c_sh c) -> s_c sh' = s_c (c_sh c) ->
  (s_f (c_sh c) = true -> s_f sh' = true) ->
  (is_end r && can_end o = true \/ o = Skip -> s_f sh' = true) ->
  (fused e -> s_f sh' = true -> s_f (c_sh c) = true \/ s_cur (c_sh c) = e_len e \/ o = Skip \/ is_panic r = true) ->
  ev_late e t r d (c_trace c) = true ->
  (fused e -> ev_pos e t r d (c_trace c) = true) ->
  IInvB (commit c t sh' ts' l [ERet t r d]).
Proof.
  intros I Hp Hidle Ec Ecs Sf Hstop Hwhy H5 H234.
  assert (Hsp := pend_split _ _ _ Hp).
  assert (Hsk : o = Skip -> skip_returned (ERet t r d :: c_trace c) = true)
    by (intros ->; cbn [skip_returned]; rewrite Hsp; reflexivity).
  apply iB_commit; [exact I|repeat constructor|exact Sf|..]; cbn [app].
  - rewrite (end_reported_ret _ _ _ _ _ _ Hsp). intros H. apply orb_true_iff in H.
    destruct H as [H|H]; [apply Hstop; left; exact H|apply Sf, (b_endf c I H)].
  - cbn [skip_returned]. rewrite Hsp. destruct o; try (intros H; apply Sf, (b_skip c I H)).
    intros _. apply Hstop. right. reflexivity.
  - unfold late_ok. rewrite pend_call_self_ret. exact I0.
  - rewrite Hidle. discriminate.
  - rewrite all_rets_ret, H5. apply (b_evs5 c I).
  - intros Hfu BF. rewrite all_rets_ret, (H234 Hfu), Ec, Ecs. split; [|split; [apply (bf_evs c BF)|apply (bf_cs c BF)]].
    intros Hf. cbn [has_panic].
    destruct (Hwhy Hfu Hf) as [H|[H|[H|H]]].
    + destruct (bf_f c BF H) as [H1|[H1|H1]]; [auto|right; left; apply skip_returned_cons; exact H1|].
      right; right. rewrite H1. apply orb_true_r.
    + auto.
    + auto.
    + right; right. rewrite H. reflexivity.
Qed.

(** the state in which thread [t] has made its call and has not moved yet: a call is this, followed by the
    move to the first program counter of the operation or by its return *)
Definition called (c : cfg) (t : tid) (o : op) : cfg :=
  {| c_sh := c_sh c; c_pool := c_pool c; c_trace := ECall t o :: c_trace c; c_labels := c_labels c |}.

Lemma iB_called c t o : IInvB c -> t_pc (c_pool c t) = PIdle -> t_acc (c_pool c t) = [] -> IInvB (called c t o).
Proof.
  intros I Hpc Hacc. split; cbn [called c_pool c_trace].
  - apply (b_endf c I).
  - apply (b_skip c I).
  - intros u. unfold late_ok. cbn [pend_call]. destruct (Nat.eqb_spec t u) as [<-|]; [|apply (b_nt c I u)].
    rewrite Hpc, Hacc. split; reflexivity.
  - apply (b_pubf c I).
  - apply (b_evs5 c I).
  - intros Hfu. destruct (b_fu c I Hfu) as [H1 H2 H3]. split; assumption.
Qed.

Lemma call_ret_null ts o b r d : call_res e ts o = CRet b r d ->
  null_pair o r = true /\ is_end r && can_end o = false /\ o <> Skip.
Proof.
  unfold call_res. rewrite Hk. intros E. destruct o as [v|n k|n|k| |lk n cr| | |]; try discriminate E.
  - destruct (N.eqb_spec n 0) as [->|]; [|discriminate E]. injection E as _ <- _. repeat split; discriminate.
  - destruct (N.eqb_spec n 0) as [->|]; injection E as _ <- _; repeat split; discriminate.
  - destruct (t_buf ts); [discriminate E|]. injection E as _ <- _. repeat split; discriminate.
  - injection E as _ <- _. repeat split; discriminate.
  - destruct (N.eqb_spec n 0) as [->|]; [|destruct (n =? 1); discriminate E]. injection E as _ <- _. repeat split; discriminate.
Qed.

Lemma iB_call c t o rest :
  IInvA e L c -> IInvB c -> t_pc (c_pool c t) = PIdle -> IInvB (call e c t (c_pool c t) o rest).
Proof.
  intros A I Hpc.
  assert (Hacc : t_acc (c_pool c t) = []) by (apply (iacc_idle e L c t A); unfold is_idle; rewrite Hpc; reflexivity).
  pose proof (iB_called c t o I Hpc Hacc) as I1.
  unfold call. destruct (call_res e (c_pool c t) o) as [p|b r d] eqn:E.
  - apply (call_op_iter e Hk) in E. apply (iB_silent (called c t o)); auto.
    + right; right. split; [destruct p; try contradiction; reflexivity|symmetry; exact Hacc].
    + destruct p; try contradiction; exact I0.
  - destruct (call_ret_null _ _ _ _ _ E) as (Hnull & Hne & Hns).
    destruct (ev_null t r d _ o (c_trace c) (pend_call_self_call t o _) Hnull) as [H5 H234].
    apply (iB_ret (called c t o)) with o (c_trace c); auto.
    + apply pend_call_self_call.
    + rewrite Hne. intros [H|H]; [discriminate H|contradiction].
Qed.

Lemma call_ctx c t : IInvA e L c -> is_idle (c_pool c t) = false ->
  exists o older, pend_call t (c_trace c) = Some (o, older) /\ call_res e (c_pool c t) o = CGo (entry_of (t_pc (c_pool c t))) /\
                  split_call t (c_trace c) = Some (o, older) /\ suffix older (c_trace c).
Proof.
  intros A Hni. pose proof (a_call e L c A t) as Hc. unfold icall_ok in Hc. rewrite Hni in Hc. destruct Hc as (o & older & Hp & Hres).
  exists o, older. split; [exact Hp|]. split; [exact Hres|]. split; [apply pend_split; exact Hp|eapply pend_suffix; exact Hp].
Qed.

Lemma pull_ctx c t q : IInvA e L c -> req_of (t_pc (c_pool c t)) = Some q ->
  exists o older, pend_call t (c_trace c) = Some (o, older) /\ call_res e (c_pool c t) o = CGo (PRes q) /\
                  split_call t (c_trace c) = Some (o, older) /\ suffix older (c_trace c) /\ o <> Skip.
Proof.
  intros A Hreq. destruct (call_ctx c t A) as (o & older & Hp & Hres & Hs & Hsuf).
  { unfold is_idle. destruct (t_pc (c_pool c t)); try reflexivity; discriminate Hreq. }
  unfold entry_of in Hres. rewrite Hreq in Hres.
  exists o, older. repeat split; try assumption. intros ->. discriminate Hres.
Qed.

Lemma loop_shape c t l cc cr older : IInvA e L c -> pend_call t (c_trace c) = Some (Loop l cc cr, older) ->
  forallb (shape_ok l) (t_acc (c_pool c t)) = true.
Proof. intros A Hp. pose proof (a_shape e L c A t) as H. unfold ishape_ok in H. rewrite Hp in H. apply (H l cc cr eq_refl). Qed.

(** a loop, or a pull that meets a panic of the wrapped iterator, returns what it has handed to its closure *)
Lemma ev_pos_acc c t o older r d :
  IInvA e L c -> fused e -> pend_call t (c_trace c) = Some (o, older) ->
  res_runs r = rev (t_acc (c_pool c t)) -> res_cover e r = map (run_iv e) (res_runs r) ->
  match o with
  | Chunk n k => (n =? 0) || chunk_ok e n k r
  | BufNext k => match buf_size t older with Some c => chunk_ok e c k r | None => true end
  | _ => true
  end = true ->
  ev_pos e t r d (c_trace c) = true.
Proof.
  intros A Hfu Hp Hr Hc H3.
  pose proof (a_acc e L c A Hfu t) as Ha. unfold iacc_ok in Ha. rewrite Hp in Ha. destruct Ha as (Ha1 & _ & Ha3 & Ha4).
  apply ev_pos_intro with o older; try assumption.
  - rewrite Hr, forallb_rev. exact Ha1.
  - rewrite Hc, Hr, map_rev. exact Ha3.
  - rewrite Hc, Hr, map_rev, all_above_rev. exact Ha4.
Qed.

Lemma iB_end c t sh' q l :
  IInvA e L c -> IInvB c -> req_of (t_pc (c_pool c t)) = Some q ->
  s_cur sh' = s_cur (c_sh c) -> s_c sh' = s_c (c_sh c) -> s_f sh' = true ->
  (fused e -> s_f (c_sh c) = true \/ s_cur (c_sh c) = e_len e) ->
  IInvB (finish e c t sh' (c_pool c t) l q (Ok PREnd)).
Proof.
  intros A I Hreq Ec Ecs Hstop HF.
  destruct (pull_ctx c t q A Hreq) as (o & older & Hpend & Hres & _).
  apply (call_op_iter e Hk) in Hres.
  assert (Hwhy : fused e -> s_f sh' = true ->
            s_f (c_sh c) = true \/ s_cur (c_sh c) = e_len e \/ o = Skip \/ is_panic RNone = true)
    by (intros Hfu _; destruct (HF Hfu); auto).
  unfold finish, deliver. destruct (q_ctx q) as [|lk crash].
  - assert (Hnull : null_pair o RNone = true) by (destruct o; try contradiction; reflexivity).
    destruct (ev_null t RNone [] _ o older Hpend Hnull) as [H5 H234].
    apply iB_ret with o older; auto.
  - destruct Hres as (cc & -> & Hcc).
    apply iB_ret with (Loop lk cc crash) older; auto.
    + apply ev_late_intro with (Loop lk cc crash) older; [exact Hpend| |].
      * intros Hs. destruct (b_gate c t _ _ I Hpend Hs) as (_ & ->). auto.
      * destruct (N.eqb_spec cc 0); [contradiction|]. cbn [loop_shape_ok]. rewrite andb_true_r, forallb_rev.
        exact (loop_shape c t _ _ _ _ A Hpend).
    + intros Hfu. apply (ev_pos_acc c t (Loop lk cc crash) older); auto.
Qed.

(** it panics or answers None, and the cursor stays; or it yields the position under the cursor *)
Lemma src_step c t q b g : IInvA e L c -> t_pc (c_pool c t) = PSrc q b g ->
  exists p' cur' calls' l,
    step e c t = commit c t (with_src (c_sh c) cur' calls') (set_pc (c_pool c t) p') l [] /\
    ((cur' = s_cur (c_sh c) /\ (p' = PUnw q b g \/ p' = PSetF q b g)) \/
     (cur' = s_cur (c_sh c) + 1 /\ s_cur (c_sh c) < e_len e /\
      (p' = PSrc q b (s_cur (c_sh c) :: g) \/ p' = PPub q b (s_cur (c_sh c) :: g)))).
Proof.
  intros A Hpc. destruct (a_ipc e L c t _ A Hpc) as (Hq & _ & Hlt).
  rewrite (istep_src e c t q b g Hpc)
    by (intros v M; split; [exact (proj2 (proj2 Hq) v M)|exact (single_got q g v Hq M Hlt)]).
  destruct (crashes_now e (c_sh c)); [eexists _, _, _, _; split; [reflexivity|left; auto]|].
  destruct (src_next_cases e (c_sh c)) as [[-> Hsl]|[-> _]].
  - destruct (_ =? _); eexists _, _, _, _; (split; [reflexivity|right; auto]).
  - eexists _, _, _, _; (split; [reflexivity|left; auto]).
Qed.

(** when the wrapped iterator is fused, that position lies inside the ticket of the thread *)
Lemma src_in_ticket c t q b g : IInvA e L c -> fused e -> t_pc (c_pool c t) = PSrc q b g ->
  s_cur (c_sh c) < e_len e -> b <= s_cur (c_sh c) < s_c (c_sh c).
Proof.
  intros A Hfu Hpc Hsl. destruct (a_ipc e L c t _ A Hpc) as (Hq & _ & Hlt).
  pose proof (p_tk _ _ _ _ _ (a_prot e L c A) t _ _ (f_equal ticket Hpc)) as (_ & _ & Hbc). rewrite (pub_incr_n q Hq) in Hbc.
  pose proof (p_got _ _ _ _ _ (a_protF e L c A Hfu) t _ _ (f_equal in_crit Hpc) (f_equal ticket Hpc)) as [_ Hcur].
  unfold pcs_of in Hcur. rewrite Hpc in Hcur. cbn [got_of] in Hcur. lia.
Qed.

Lemma iB_src c t q b g :
  IInvA e L c -> IInvB c -> t_pc (c_pool c t) = PSrc q b g -> IInvB (step e c t).
Proof.
  intros A I Hpc. destruct (src_step c t q b g A Hpc) as (p' & cur' & calls' & l & -> & Hcase).
  apply iB_silent; auto.
  - right; left. rewrite Hpc. reflexivity.
  - destruct Hcase as [(_ & [->| ->])|(_ & _ & [->| ->])]; exact I0.
  - intros Hfu. cbn [with_src s_cur s_c]. destruct Hcase as [(-> & _)|(-> & Hlt & _)]; [auto|].
    pose proof (src_in_ticket c t q b g A Hfu Hpc Hlt). repeat split; [lia|auto|lia].
Qed.

Lemma iB_got c t q b g l :
  IInvA e L c -> IInvB c -> In t L -> t_pc (c_pool c t) = PPub q b g -> g <> [] ->
  IInvB (finish e c t (with_y (c_sh c) (b + q_n q)) (c_pool c t) l q
                (Ok (PRGot b (runs_of b (rev g)) (N.of_nat (length g))))).
Proof.
  intros A I Hin Hpc Hgne.
  destruct (pull_ctx c t q A (f_equal req_of Hpc)) as (o & older & Hpend & Hres & _ & Hsuf & Hns).
  apply (call_op_iter e Hk) in Hres.
  assert (Hnst : stopped2 older = false) by (apply (past_gate c t o older I Hpend); rewrite Hpc; reflexivity).
  destruct (a_ipc e L c t _ A Hpc) as (Hq & _ & Hgn & Hg1).
  set (rs := runs_of b (rev g)). set (cnt := N.of_nat (length g)).
  assert (Hk1 : 1 <= cnt) by (unfold cnt; destruct g; [contradiction|cbn [length]; lia]).
  (* when the wrapped iterator is fused: one run, the positions from the ticket on, above everything
     delivered so far and everything the thread's loop has handled *)
  assert (HFu : fused e -> rs = [mk_run (Some b) (val_of e b) cnt] /\ b < e_len e /\ b + cnt <= e_len e /\
                 (cnt < q_n q -> b + cnt = e_len e) /\
                 iv_maxhi (cov e older) <= b /\ iv_maxhi (acc_iv e (c_pool c t)) <= b).
  { intros Hfu. destruct (pub_fused e Hk L c t q b g A Hfu Hpc Hgne) as (H1 & H2 & H3 & H4).
    pose proof (p_cur _ _ _ _ _ (a_prot e L c A)) as Hcl.
    destruct (top_below e L NDL c t b cnt A Hfu Hin) as [Hc Ha]; [unfold held; rewrite Hpc; reflexivity|lia|exact Hk1|].
    pose proof (cov_suffix_maxhi e _ _ Hsuf). repeat split; try assumption; lia. }
  unfold finish, deliver. destruct (q_ctx q) as [|lk crash].
  - (* directly *)
    destruct (deliver_top_eq e Hk (c_pool c t) q b rs cnt) as (ts' & d & -> & Hp' & _).
    assert (Hne : is_end (top_res q b rs cnt) = false).
    { apply top_res_plain. unfold rs. destruct g as [|g0 g']; [contradiction|]. cbn [rev]. destruct (rev g'); apply runs_of_nonnil. }
    apply iB_ret with o older; auto.
    + rewrite Hne. intros [H|H]; [discriminate H|contradiction].
    + apply ev_late_intro with o older; [exact Hpend|rewrite Hnst; discriminate|]. destruct o; try reflexivity. contradiction.
    + intros Hfu. destruct (HFu Hfu) as (-> & Hbl & Hble & Hshort & Hcb & _).
      destruct (top_res_run e q b cnt Hbl Hble) as (Hidx & took & Htk & Hcov).
      apply ev_pos_intro with o older; auto.
      * unfold top_res. destruct o; try reflexivity.
        -- destruct Hres as [<- ->]. rewrite chunk_ok_at by assumption. apply orb_true_r.
        -- destruct Hres as (bf & Hbf & Hn & ->). rewrite <- (buf_size_pend _ _ _ _ Hpend) by discriminate.
           rewrite (a_buf e L c A t bf Hbf), <- Hn. apply chunk_ok_at; assumption.
      * rewrite Hcov. apply increasing_split.
      * rewrite Hcov. apply all_above_split. exact Hcb.
  - (* inside a loop: the closure is invoked *)
    destruct Hres as (cc & -> & Hcc).
    pose proof (loop_shape c t _ _ _ _ A Hpend) as Hsh.
    unfold deliver_loop.
    pose proof (loop_invoke_shape lk crash (total_cnt (t_acc (c_pool c t))) rs cnt (runs_of_idx _ _)) as Hi2g.
    destruct (loop_invoke lk crash (total_cnt (t_acc (c_pool c t))) rs cnt) as [inv pan] eqn:Eli.
    destruct pan as [used|].
    + (* it panics: the loop returns *)
      apply iB_ret with (Loop lk cc crash) older; auto.
      * intros [H|H]; discriminate H.
      * apply ev_late_intro with (Loop lk cc crash) older; [exact Hpend|rewrite Hnst; discriminate|].
        destruct (N.eqb_spec cc 0); [contradiction|].
        rewrite (loop_panic_user _ _ _ _ _ _ _ _ Eli), andb_true_r. cbn [loop_shape_ok].
        rewrite forallb_rev, forallb_app, forallb_rev. apply andb_true_iff. split; [exact Hi2g|exact Hsh].
      * intros Hfu. destruct (HFu Hfu) as (Hrs & Hbl & Hble & _ & Hcb & Hab).
        destruct (loop_invoke_cases e lk crash (total_cnt (t_acc (c_pool c t))) b cnt Hble) as (inv2 & pan2 & E2 & Hi1 & _ & Hinv).
        rewrite Hrs, E2 in Eli. injection Eli as -> ->. destruct Hinv as (_ & _ & Hinv).
        pose proof (a_acc e L c A Hfu t) as Ha. unfold iacc_ok in Ha. rewrite Hpend in Ha. destruct Ha as (Ha1 & _ & Ha3 & Ha4).
        assert (Hcovr : res_cover e (RPanic PkUser (rev (rev inv ++ t_acc (c_pool c t)))) = rev (acc_iv e (c_pool c t)) ++ [(b, used)]).
        { cbn [res_cover res_taken]. rewrite rev_app_distr, rev_involutive, map_app, Hinv. rewrite map_rev. reflexivity. }
        apply ev_pos_intro with (Loop lk cc crash) older; auto.
        -- cbn [res_runs]. rewrite forallb_rev, forallb_app, forallb_rev, Hi1. exact Ha1.
        -- rewrite Hcovr. apply increasing_snoc; [exact Ha3|].
           rewrite (iv_maxhi_perm _ _ (Permutation_sym (Permutation_rev _))). exact Hab.
        -- rewrite Hcovr, all_above_app, all_above_rev, Ha4. apply all_above_forall. intros a [<-|[]]. right. exact Hcb.
    + (* the loop goes on *)
      apply iB_silent; auto; [right; left; rewrite Hpc; reflexivity|exact I0].
Qed.

Lemma iB_unw c t q b g ts' d l :
  IInvA e L c -> IInvB c -> t_pc (c_pool c t) = PUnw q b g -> t_pc ts' = PIdle ->
  IInvB (commit c t (with_f (c_sh c) true) ts' l [ERet t (RPanic PkSource (rev (t_acc (c_pool c t)))) d]).
Proof.
  intros A I Hpc Hp'.
  destruct (pull_ctx c t q A (f_equal req_of Hpc)) as (o & older & Hpend & Hres & _).
  assert (Hnst : stopped2 older = false) by (apply (past_gate c t o older I Hpend); rewrite Hpc; reflexivity).
  apply iB_ret with o older; auto.
  - apply ev_late_intro with o older; [exact Hpend|rewrite Hnst; discriminate|].
    destruct o; try reflexivity. unfold call_res in Hres. destruct (N.eqb_spec c0 0); [discriminate Hres|].
    cbn [loop_shape_ok]. rewrite andb_true_r, forallb_rev. exact (loop_shape c t _ _ _ _ A Hpend).
  - intros Hfu. apply (ev_pos_acc c t o older); auto.
    destruct o; try reflexivity; [apply orb_true_r|destruct (buf_size t older); reflexivity].
Qed.

(** a query returns the length answer [a]; as with a silent step, a query called after the iteration was stopped
    does not see the flag down: it answers zero *)
Lemma iB_len_ret c t hm (a : option N) l :
  IInvA e L c -> IInvB c -> entry_of (t_pc (c_pool c t)) = PLen hm ->
  a = Some 0 \/ s_f (c_sh c) = false \/ before_gate (t_pc (c_pool c t)) = false ->
  IInvB (commit c t (c_sh c) (set_pc (c_pool c t) PIdle) l [ERet t (len_res hm a) []]).
Proof.
  intros A I Hent Hg.
  destruct (call_ctx c t A) as (o & older & Hpend & Hres & _ & Hsuf); [unfold is_idle; destruct (t_pc (c_pool c t)); try reflexivity; discriminate Hent|].
  rewrite Hent in Hres. apply (call_op_iter e Hk) in Hres. subst o.
  assert (Hz : stopped2 older = true -> a = Some 0).
  { intros Hs. destruct Hg as [H|[H|H]]; [exact H|rewrite (b_stop c older I Hsuf Hs) in H|rewrite (past_gate c t _ older I Hpend H) in Hs]; discriminate. }
  destruct hm; (eapply iB_ret; try exact Hpend; auto;
    [intros [H|H]; discriminate H
    |eapply ev_late_intro; [exact Hpend|intros Hs; rewrite (Hz Hs); auto|reflexivity]
    |intros _; eapply ev_pos_intro; [exact Hpend|reflexivity..]]).
Qed.

Lemma iB_step c t : IInvA e L c -> IInvB c -> In t L -> istep_nowrap c t -> IInvB (step e c t).
Proof.
  intros A I Hin Hw. unfold istep_nowrap in Hw.
  destruct (t_pc (c_pool c t)) as [|q|q b|q b|q b|q b got|q b got|q b got|q b got| |hm|hm] eqn:Hpc.
  - destruct (t_todo (c_pool c t)) as [|o rest] eqn:Htodo.
    + rewrite (step_idle_nil e) by assumption. exact I.
    + rewrite (step_idle_call e c t o rest) by assumption. apply iB_call; assumption.
  - rewrite (istep_res e Hk c t q Hpc), wadd_nowrap by assumption.
    apply iB_silent; auto; [exact I0|]. cbn [with_c s_cur s_c]. repeat split; auto. lia.
  - rewrite (istep_chkf e c t q b Hpc). destruct (s_f (c_sh c)) eqn:Ef.
    + apply iB_end; auto. rewrite Hpc. reflexivity.
    + apply iB_silent; auto.
  - rewrite (istep_ldy e c t q b Hpc).
    (* the yielded counter is never beyond a ticket *)
    destruct (p_tk _ _ _ _ _ (a_prot e L c A) t _ _ (f_equal ticket Hpc)) as (_ & Hyb & _).
    destruct (b =? s_y (c_sh c)); [|destruct (N.ltb_spec b (s_y (c_sh c))); [lia|]]; apply iB_silent; auto.
  - rewrite (istep_chkt e c t q b Hpc). destruct (s_f (c_sh c)) eqn:Ef.
    + apply iB_end; auto. rewrite Hpc. reflexivity.
    + apply iB_silent; auto.
  - apply iB_src with q b got; assumption.
  - rewrite (istep_setf e c t q b got Hpc).
    assert (Hlen : fused e -> s_cur (c_sh c) = e_len e)
      by (intros Hfu; apply (p_setf _ _ _ _ _ (a_protF e L c A Hfu) t q b got); exact Hpc).
    destruct (q_mode q); [apply iB_end; auto; rewrite Hpc; reflexivity|..];
      (apply iB_silent; auto; [right; left; rewrite Hpc; reflexivity|destruct got; [reflexivity|exact I0]]).
  - (* the pull took nothing only if the flag is up *)
    destruct (pub_step e L c t q b got A Hpc Hw) as (_ & _ & ->).
    destruct got as [|g0 g'].
    + pose proof (b_pubf c I t q b Hpc) as Hf. apply iB_end; auto. rewrite Hpc. reflexivity.
    + apply iB_got; try assumption. discriminate.
  - destruct (istep_unw e Hk c t q b got Hpc) as (ts' & d & -> & Hp'). apply iB_unw with q b got; assumption.
  - rewrite (istep_skip e Hk c t Hpc).
    destruct (call_ctx c t A) as (o & older & Hpend & Hres & _); [unfold is_idle; rewrite Hpc; reflexivity|].
    rewrite Hpc in Hres. apply (call_op_iter e Hk) in Hres. cbn [entry_of req_of] in Hres. subst o.
    destruct (ev_null t RUnit [] _ Skip older Hpend eq_refl) as [H5 H234].
    apply iB_ret with Skip older; auto.
  - rewrite (istep_len e Hk c t hm Hpc).
    pose proof (f_equal entry_of Hpc) as Hent.
    destruct (s_f (c_sh c)) eqn:Ef; [apply iB_len_ret; auto|].
    destruct (e_hint e); [|apply iB_len_ret; auto..].
    apply iB_silent; auto.
  - rewrite (istep_len2 e c t hm Hpc). apply iB_len_ret; auto; [|right; right]; rewrite Hpc; reflexivity.
Qed.

Lemma iB_init progs : IInvB (init progs).
Proof.
  split.
  - discriminate.
  - discriminate.
  - intros t. exact I0.
  - discriminate.
  - reflexivity.
  - split; cbn [init c_sh s_cur]; [discriminate|reflexivity|lia].
Qed.

Theorem iAB_exec progs sched :
  (forall t, Forall wf_op (progs t)) ->
  Forall (fun t => In t L) sched ->
  nowrap (c_labels (exec e (init progs) sched)) ->
  IInvA e L (exec e (init progs) sched) /\ IInvB (exec e (init progs) sched).
Proof.
  intros Hp Hs Hw.
  apply (exec_inv e label_nowrap (fun t => In t L) (fun c => IInvA e L c /\ IInvB c)); try assumption.
  - intros c t Hin [A B] Hn. apply (istep_labels e Hk) in Hn. split; [apply iA_step|apply iB_step]; assumption.
  - split; [apply iA_init; assumption|apply iB_init].
Qed.

End IterB.
