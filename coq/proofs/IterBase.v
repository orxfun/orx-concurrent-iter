(** * The wrapper over an arbitrary iterator (ConIterOfIter): vocabulary of the ticket protocol and
      the equations of [step]. *)
From Coq Require Import Lia ZArith Permutation.
From OCI Require Import Machine Checkers.
From OCI.proofs Require Import Base Trace ArithOk InvKnown.
Open Scope N_scope.

(** the ticket a thread holds: begin index and size of its reservation *)
Definition ticket (p : pc) : option (N * N) :=
  match p with
  | PChkF q b | PLdY q b | PChkT q b | PSrc q b _ | PSetF q b _ | PPub q b _ | PUnw q b _ => Some (b, pub_incr q)
  | _ => None
  end.

(** the thread is inside its critical section: it has found its ticket at the yielded counter (and is
    about to look at the completed flag once more), it uses, or has just used, the wrapped iterator *)
Definition in_crit (p : pc) : bool :=
  match p with PChkT _ _ | PSrc _ _ _ | PSetF _ _ _ | PPub _ _ _ | PUnw _ _ _ => true | _ => false end.

Definition got_of (p : pc) : list N :=
  match p with PSrc _ _ g | PSetF _ _ g | PPub _ _ g | PUnw _ _ g => g | _ => [] end.

Definition req_of (p : pc) : option req :=
  match p with
  | PRes q | PChkF q _ | PLdY q _ | PChkT q _ | PSrc q _ _ | PSetF q _ _ | PPub q _ _ | PUnw q _ _ => Some q
  | _ => None
  end.

Definition tk_size (p : pc) : Z := match ticket p with Some (_, n) => Z.of_N n | None => 0%Z end.

Lemma crit_ticket p : in_crit p = true -> exists b n, ticket p = Some (b, n).
Proof. destruct p; try discriminate; eexists _, _; reflexivity. Qed.

Lemma no_ticket_outside p : ticket p = None -> in_crit p = false.
Proof. destruct p; try discriminate; reflexivity. Qed.

(** the thread that moved, or another one *)
Ltac spl u t := destruct (Nat.eq_dec u t) as [->|?]; [rewrite ?upd_same|rewrite ?upd_other by assumption].

Fixpoint ascN (lo : N) (k : nat) : list N :=
  match k with O => [] | S k' => lo :: ascN (lo + 1) k' end.

Lemma ascN_snoc lo k : ascN lo k ++ [lo + N.of_nat k] = ascN lo (S k).
Proof.
  revert lo. induction k as [|k IH]; intros lo.
  - rewrite N.add_0_r. reflexivity.
  - change (ascN lo (S k)) with (lo :: ascN (lo + 1) k).
    change (ascN lo (S (S k))) with (lo :: ascN (lo + 1) (S k)). cbn [app]. f_equal.
    rewrite <- IH. f_equal. f_equal. lia.
Qed.

Lemma runs_of_asc i v k : runs_of i (ascN v (S k)) = [mk_run (Some i) v (N.of_nat (S k))].
Proof.
  revert i v. induction k as [|k IH]; intros i v.
  - reflexivity.
  - change (ascN v (S (S k))) with (v :: ascN (v + 1) (S k)). cbn [runs_of]. rewrite IH.
    rewrite N.eqb_refl. unfold mk_run. f_equal. f_equal.
    cbn [r_cnt]. lia.
Qed.

Lemma runs_of_nil i : runs_of i [] = [].
Proof. reflexivity. Qed.

(** what a thread holds that is not yet in the trace: the closure invocations of its running loop and
    the elements it has taken from the wrapped iterator in its current critical section *)
Definition held (e : env) (ts : tstate) : list iv :=
  acc_iv e ts ++
  match t_pc ts with
  | PSrc _ b g | PSetF _ b g | PPub _ b g | PUnw _ b g => [(b, N.of_nat (length g))]
  | PChkT _ b => [(b, 0)]
  | _ => []
  end.

Definition helds (e : env) (L : list tid) (pool : tid -> tstate) : list iv := gather (fun t => held e (pool t)) L.

Definition crit_iv (p : pc) : list iv :=
  match ticket p with
  | Some (b, _) => if in_crit p then [(b, N.of_nat (length (got_of p)))] else []
  | None => []
  end.

Lemma held_eq e ts : held e ts = acc_iv e ts ++ crit_iv (t_pc ts).
Proof. unfold held. destruct (t_pc ts); reflexivity. Qed.

Lemma held_set_pc e ts p : held e (set_pc ts p) = acc_iv e ts ++ crit_iv p.
Proof. apply held_eq. Qed.

Lemma iv_total_crit p : iv_total (crit_iv p) = N.of_nat (length (got_of p)).
Proof. destruct p; try reflexivity; apply N.add_0_r. Qed.

Lemma perm_swap_front {A} (a x h : list A) : Permutation ((a ++ x) ++ h) (x ++ a ++ h).
Proof. rewrite <- app_assoc. apply Permutation_app_swap_app. Qed.

Lemma helds_upd e L pool t ts' : NoDup L -> In t L ->
  exists rest, Permutation (helds e L pool) (held e (pool t) ++ rest) /\
               Permutation (helds e L (upd pool t ts')) (held e ts' ++ rest).
Proof.
  intros ND Hin.
  destruct (gather_upd (fun u => held e (pool u)) L t (held e ts') ND Hin) as (rest & P1 & P2).
  exists rest. split; [exact P1|].
  rewrite <- P2. erewrite gather_ext; [apply Permutation_refl|].
  intros u _. unfold upd. destruct (Nat.eqb u t); reflexivity.
Qed.

(** the multiset of delivered intervals after a step: [delta] is what the step acquired *)
Lemma hmove_perm e L pool t ts' (base base' newp delta : list iv) :
  NoDup L -> In t L ->
  Permutation (newp ++ held e ts') (delta ++ held e (pool t)) ->
  Permutation base' (newp ++ base) ->
  Permutation (base' ++ helds e L (upd pool t ts')) (delta ++ (base ++ helds e L pool)).
Proof.
  intros ND Hin P Pb. destruct (helds_upd e L pool t ts' ND Hin) as (rest & P1 & P2).
  rewrite P1, P2, Pb, <- app_assoc, (Permutation_app_swap_app base), app_assoc, P, <- app_assoc.
  apply Permutation_app_head, Permutation_app_swap_app.
Qed.

Definition npanic (tr : list event) : bool := negb (has_panic tr).

Lemma npanic_cons ev tr : npanic (ev :: tr) = true -> npanic tr = true.
Proof.
  unfold npanic. intros H.
  destruct (has_panic tr) eqn:E; [|reflexivity]. rewrite (has_panic_cons ev tr E) in H. discriminate.
Qed.

Lemma npanic_app evs tr : npanic (evs ++ tr) = true -> npanic tr = true.
Proof. induction evs as [|ev evs IH]; [auto|]. intros H. exact (IH (npanic_cons _ _ H)). Qed.

Lemma npanic_call u o tr : npanic (ECall u o :: tr) = npanic tr.
Proof. reflexivity. Qed.

Lemma npanic_ret u r d tr : npanic (ERet u r d :: tr) = negb (is_panic r) && npanic tr.
Proof. unfold npanic. cbn [has_panic]. destruct (is_panic r), (has_panic tr); reflexivity. Qed.

Lemma src_next_cases e sh :
  (src_next e sh = Some (s_cur sh) /\ s_cur sh < e_len e) \/
  (src_next e sh = None /\ (fused e -> e_len e <= s_cur sh)).
Proof.
  unfold src_next. destruct (e_gap e (s_calls sh)) eqn:Eg.
  - right. split; [reflexivity|]. intros Hfu. rewrite (Hfu (s_calls sh)) in Eg. discriminate.
  - destruct (N.ltb_spec (s_cur sh) (e_len e)) as [H|H]; [left|right]; auto.
Qed.

Lemma src_next_fused e sh : fused e ->
  src_next e sh = if s_cur sh <? e_len e then Some (s_cur sh) else None.
Proof. intros Hfu. unfold src_next. rewrite (Hfu (s_calls sh)). reflexivity. Qed.

Section IterEq.

Variable e : env.
Hypothesis Hk : e_kind e = KIter.

Lemma istep_res c t q : t_pc (c_pool c t) = PRes q ->
  step e c t = commit c t (with_c (c_sh c) (wadd (s_c (c_sh c)) (pub_incr q)))
                      (set_pc (c_pool c t) (PChkF q (s_c (c_sh c))))
                      (LAtom t SC AAdd (pub_incr q) (s_c (c_sh c)) (o_res q)) [].
Proof. intros H. unfold step. rewrite H, Hk. reflexivity. Qed.

Lemma istep_chkf c t q b : t_pc (c_pool c t) = PChkF q b ->
  step e c t =
  if s_f (c_sh c) then finish e c t (c_sh c) (c_pool c t) (LAtom t SF ALoad 0 (bN (s_f (c_sh c))) (o_chkf q)) q (Ok PREnd)
  else commit c t (c_sh c) (set_pc (c_pool c t) (PLdY q b)) (LAtom t SF ALoad 0 (bN (s_f (c_sh c))) (o_chkf q)) [].
Proof. intros H. unfold step. rewrite H. reflexivity. Qed.

Lemma istep_ldy c t q b : t_pc (c_pool c t) = PLdY q b ->
  step e c t =
  if b =? s_y (c_sh c) then commit c t (c_sh c) (set_pc (c_pool c t) (PChkT q b)) (LAtom t SY ALoad 0 (s_y (c_sh c)) (o_ldy q)) []
  else if b <? s_y (c_sh c) then finish e c t (c_sh c) (c_pool c t) (LAtom t SY ALoad 0 (s_y (c_sh c)) (o_ldy q)) q (Ok PREnd)
  else commit c t (c_sh c) (set_pc (c_pool c t) (PChkF q b)) (LAtom t SY ALoad 0 (s_y (c_sh c)) (o_ldy q)) [].
Proof. intros H. unfold step. rewrite H. reflexivity. Qed.

Lemma istep_chkt c t q b : t_pc (c_pool c t) = PChkT q b ->
  step e c t =
  if s_f (c_sh c) then finish e c t (c_sh c) (c_pool c t) (LAtom t SF ALoad 0 (bN (s_f (c_sh c))) (o_chkt q)) q (Ok PREnd)
  else commit c t (c_sh c) (set_pc (c_pool c t) (PSrc q b [])) (LAtom t SF ALoad 0 (bN (s_f (c_sh c))) (o_chkt q)) [].
Proof. intros H. unfold step. rewrite H. reflexivity. Qed.

(** a single pull holds nothing yet and is full after one element, so that it goes the way of a chunk pull *)
Lemma istep_src c t q b g : t_pc (c_pool c t) = PSrc q b g ->
  (forall v, q_mode q = MSingle v -> q_n q = 1 /\ g = []) ->
  step e c t =
  if crashes_now e (c_sh c)
  then commit c t (with_src (c_sh c) (s_cur (c_sh c)) (s_calls (c_sh c) + 1)) (set_pc (c_pool c t) (PUnw q b g)) (LSrcPanic t) []
  else match src_next e (c_sh c) with
       | Some p => commit c t (with_src (c_sh c) (s_cur (c_sh c) + 1) (s_calls (c_sh c) + 1))
                     (set_pc (c_pool c t) (if N.of_nat (length (p :: g)) =? q_n q then PPub q b (p :: g) else PSrc q b (p :: g)))
                     (LSrc t (Some p)) []
       | None => commit c t (with_src (c_sh c) (s_cur (c_sh c)) (s_calls (c_sh c) + 1)) (set_pc (c_pool c t) (PSetF q b g)) (LSrc t None) []
       end.
Proof.
  intros H Hone. unfold step. rewrite H.
  destruct (q_mode q) as [v| |].
  - destruct (Hone v eq_refl) as [-> ->]. destruct (src_next e (c_sh c)); reflexivity.
  - destruct (src_next e (c_sh c)) as [p|]; [destruct (_ =? q_n q)|]; reflexivity.
  - destruct (src_next e (c_sh c)) as [p|]; [destruct (_ =? q_n q)|]; reflexivity.
Qed.

Lemma istep_skip c t : t_pc (c_pool c t) = PSkip ->
  step e c t = commit c t (with_f (c_sh c) true) (set_pc (c_pool c t) PIdle) (LAtom t SF AStore 1 0 ord_completed_store_early_exit) [ERet t RUnit []].
Proof. intros H. unfold step. rewrite H, Hk. reflexivity. Qed.

Lemma istep_setf c t q b g : t_pc (c_pool c t) = PSetF q b g ->
  step e c t =
  match q_mode q with
  | MSingle _ => finish e c t (with_f (c_sh c) true) (c_pool c t) (LAtom t SF AStore 1 0 (o_setf q)) q (Ok PREnd)
  | _ => commit c t (with_f (c_sh c) true) (set_pc (c_pool c t) (PPub q b g)) (LAtom t SF AStore 1 0 (o_setf q)) []
  end.
Proof. intros H. unfold step. rewrite H. reflexivity. Qed.

Lemma istep_pub c t q b g : t_pc (c_pool c t) = PPub q b g ->
  step e c t =
  finish e c t (with_y (c_sh c) (wadd (s_y (c_sh c)) (pub_incr q))) (c_pool c t) (LAtom t SY AAdd (pub_incr q) (s_y (c_sh c)) (o_pub q)) q
    match q_mode q with
    | MSingle _ => Ok (PRGot b (runs_of b (rev g)) (N.of_nat (length (rev g))))
    | _ => if s_y (c_sh c) =? b
           then match rev g with [] => Ok PREnd | _ => Ok (PRGot b (runs_of b (rev g)) (N.of_nat (length (rev g)))) end
           else Panic PkAssert
    end.
Proof.
  intros H. unfold step. rewrite H.
  destruct (q_mode q); (destruct (s_y (c_sh c) =? b); [destruct (rev g)|]; reflexivity).
Qed.

Lemma istep_len c t hm : t_pc (c_pool c t) = PLen hm ->
  step e c t =
  if s_f (c_sh c) then commit c t (c_sh c) (set_pc (c_pool c t) PIdle) (LAtom t SF ALoad 0 (bN (s_f (c_sh c))) ord_completed_load_try_get_len) [ERet t (len_res hm (Some 0)) []]
  else match e_hint e with
       | HExact => commit c t (c_sh c) (set_pc (c_pool c t) (PLen2 hm)) (LAtom t SF ALoad 0 (bN (s_f (c_sh c))) ord_completed_load_try_get_len) []
       | _ => commit c t (c_sh c) (set_pc (c_pool c t) PIdle) (LAtom t SF ALoad 0 (bN (s_f (c_sh c))) ord_completed_load_try_get_len) [ERet t (len_res hm None) []]
       end.
Proof. intros H. unfold step. rewrite H, Hk. reflexivity. Qed.

Lemma istep_len2 c t hm : t_pc (c_pool c t) = PLen2 hm ->
  step e c t = commit c t (c_sh c) (set_pc (c_pool c t) PIdle) (LAtom t SC ALoad 0 (s_c (c_sh c)) ord_counter_current)
                      [ERet t (len_res hm (Some (k_len e (s_c (c_sh c))))) []].
Proof. intros H. unfold step. rewrite H. reflexivity. Qed.

Lemma istep_unw c t q b g : t_pc (c_pool c t) = PUnw q b g ->
  exists ts' d, step e c t = commit c t (with_f (c_sh c) true) ts' (LAtom t SF AStore 1 0 ord_completed_store_unwind)
                               [ERet t (RPanic PkSource (rev (t_acc (c_pool c t)))) d] /\ t_pc ts' = PIdle.
Proof.
  intros Hpc. unfold step. rewrite Hpc, Hk.
  destruct (q_ctx q); [destruct (q_mode q); [| |destruct (t_buf (c_pool c t)); [destruct (write_slots _ _)|]]|];
    eexists _, _; split; reflexivity.
Qed.

(** which operation a thread is in, read off the program counter at which the operation started *)
Lemma call_op_iter ts o p : call_res e ts o = CGo p ->
  match p with
  | PRes q =>
      match q_ctx q with
      | CTop =>
          match o with
          | Next v => q_mode q = MSingle v
          | Chunk n k => q_n q = n /\ q_mode q = MChunk k
          | BufNext k => exists bf, t_buf ts = Some bf /\ q_n q = bf_c bf /\ q_mode q = MBuf k
          | _ => False
          end
      | CLoop l cr => exists c, o = Loop l c cr /\ c <> 0
      end
  | PSkip => o = Skip
  | PLen hm => o = if hm then HasMore else TryLen
  | _ => False
  end.
Proof.
  unfold call_res. rewrite Hk. destruct o as [v|n k|n|k| |l n cr| | |]; try discriminate.
  - intros E. injection E as <-. reflexivity.
  - destruct (n =? 0); [discriminate|]. intros E. injection E as <-. split; reflexivity.
  - destruct (n =? 0); discriminate.
  - destruct (t_buf ts) as [bf|]; [|discriminate]. intros E. injection E as <-. exists bf. repeat split.
  - destruct (N.eqb_spec n 0); [discriminate|].
    destruct (n =? 1); intros E; injection E as <-; exists n; split; [reflexivity|assumption|reflexivity|assumption].
  - intros E. injection E as <-. reflexivity.
  - intros E. injection E as <-. reflexivity.
  - intros E. injection E as <-. reflexivity.
Qed.

End IterEq.
