(** * C19: several iterators over one collection.

    The state of a family of iterators is the list of their configurations; a step is a step of one thread
    on one iterator, or the creation of a clone, which copies the position counter of its original
    ([Clone] of [ConIterOfSlice] / [ConIterOfRange]: the collection is shared, the counter is copied).
    Non-interference: in any interleaved history, the configuration of each iterator is the one it reaches
    ALONE, from the state it was created in, under the steps of the history that were taken on it.  What
    ties the crate to this model is the correspondence check, which projects the crate's multi-iterator
    histories onto single iterators and replays each projection on the single-iterator model. *)
From Coq Require Import Lia ZArith List.
From OCI Require Import Machine Checkers.
From OCI.proofs Require Import InvKnown ChkKnown Adaptor.
Import ListNotations.
Open Scope N_scope.

Inductive mop :=
| MStep (j : nat) (t : tid)                      (* thread t takes a step on iterator j *)
| MClone (j : nat) (progs : tid -> list op).     (* iterator j is cloned; the clone gets the next index *)

(** the clone: same collection, a copy of the position counter, nothing in flight *)
Definition clone_of (c : cfg) (progs : tid -> list op) : cfg :=
  {| c_sh := {| s_c := s_c (c_sh c); s_y := 0; s_f := false; s_cur := 0; s_calls := 0 |};
     c_pool := fun t => init_ts (progs t); c_trace := []; c_labels := [] |}.

Fixpoint upd_nth (j : nat) (f : cfg -> cfg) (m : list cfg) : list cfg :=
  match m, j with
  | [], _ => []
  | c :: tl, O => f c :: tl
  | c :: tl, S j' => c :: upd_nth j' f tl
  end.

Definition mstep (e : env) (m : list cfg) (o : mop) : list cfg :=
  match o with
  | MStep j t => upd_nth j (fun c => step e c t) m
  | MClone j progs => match nth_error m j with Some c => m ++ [clone_of c progs] | None => m end
  end.

Definition mexec (e : env) (m : list cfg) (ops : list mop) : list cfg := fold_left (mstep e) ops m.

(** the steps of a history that were taken on iterator [i] *)
Fixpoint proj (i : nat) (ops : list mop) : list tid :=
  match ops with
  | [] => []
  | MStep j t :: tl => if Nat.eqb j i then t :: proj i tl else proj i tl
  | MClone _ _ :: tl => proj i tl
  end.

Lemma upd_nth_length j f m : length (upd_nth j f m) = length m.
Proof. revert j. induction m as [|c tl IH]; intros [|j]; cbn [upd_nth length]; auto. Qed.

Lemma nth_upd_nth j f m i : nth_error (upd_nth j f m) i =
  if Nat.eqb j i then option_map f (nth_error m i) else nth_error m i.
Proof.
  revert j i. induction m as [|c tl IH]; intros [|j] [|i]; cbn [upd_nth nth_error Nat.eqb option_map]; try reflexivity.
  - destruct (Nat.eqb j i); reflexivity.
  - apply IH.
Qed.

Lemma mstep_length_ge e m o : (length m <= length (mstep e m o))%nat.
Proof.
  destruct o as [j t|j progs]; cbn [mstep].
  - rewrite upd_nth_length. lia.
  - destruct (nth_error m j); [rewrite app_length; cbn; lia|lia].
Qed.

(** an iterator that exists keeps its index, and only the steps taken on it change it *)
Lemma mstep_nth e m o i c : nth_error m i = Some c ->
  nth_error (mstep e m o) i = Some (match o with MStep j t => if Nat.eqb j i then step e c t else c | MClone _ _ => c end).
Proof.
  intros H. destruct o as [j t|j progs]; cbn [mstep].
  - rewrite nth_upd_nth, H. destruct (Nat.eqb j i); reflexivity.
  - destruct (nth_error m j); [|exact H]. rewrite nth_error_app1; [exact H|]. apply nth_error_Some. congruence.
Qed.

(** non-interference: iterator [i] of the family, after any history, is where it gets ALONE under the
    steps that were taken on it *)
Theorem non_interference e : forall ops m i c,
  nth_error m i = Some c ->
  nth_error (mexec e m ops) i = Some (exec e c (proj i ops)).
Proof.
  induction ops as [|o ops IH]; intros m i c H; [exact H|].
  cbn [mexec fold_left]. fold (mexec e (mstep e m o) ops).
  rewrite (IH _ i _ (mstep_nth e m o i c H)).
  destruct o as [j t|j progs]; cbn [proj]; [|reflexivity].
  destruct (Nat.eqb j i); reflexivity.
Qed.

(** a clone starts at the current position of its original, with nothing delivered, and from then on is an
    iterator of the family like any other *)
Theorem clone_starts_at_current e m j progs c :
  nth_error m j = Some c ->
  nth_error (mstep e m (MClone j progs)) (length m) = Some (clone_of c progs) /\
  s_c (c_sh (clone_of c progs)) = s_c (c_sh c) /\ c_trace (clone_of c progs) = [].
Proof.
  intros H. cbn [mstep]. rewrite H. rewrite nth_error_app2 by lia. rewrite Nat.sub_diag. auto.
Qed.

(** the collection under reference-yielding iterators (slices, ranges; con_iter() of a vector or an array)
    is never touched: no element is destroyed by any operation of any history on any iterator of the
    family that was created fresh *)
Theorem family_leaves_source_intact : forall e, known_env e -> e_owning e = false ->
  forall progs, wf_progs progs -> forall ops m i,
  nth_error m i = Some (init progs) ->
  nowrap (c_labels (exec e (init progs) (proj i ops))) ->
  exists c, nth_error (mexec e m ops) i = Some c /\ iv_total (dropped_all (c_trace c)) = 0.
Proof.
  intros e He Hown progs Hp ops m i H Hnw.
  exists (exec e (init progs) (proj i ops)). split; [apply non_interference; exact H|].
  apply (source_untouched e He Hown progs Hp (proj i ops) Hnw).
Qed.
