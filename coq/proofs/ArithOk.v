(** * The index arithmetic of the known-size kinds, for the whole machine word and in both build modes.

    Every pull of a known-size iterator computes, from the value [b] that its [fetch_add] returned and
    the requested size [n], the interval of positions it delivers.  These lemmas show that for *all*
    [b, n < 2^64] and all well-formed sources (any length, any range bounds below 2^64) the result is
    the mathematical one, [ [b, b + min n (len - b)) ] when [b < len] and the end otherwise; that it
    never panics; and that it is the same in the checked and in the wrapping build mode. *)
From Coq Require Import Lia.
From OCI Require Import Machine.
Open Scope N_scope.

Definition wf_env (e : env) : Prop :=
  e_len e < W /\
  match e_kind e with
  | KRange => e_start e < W /\ e_end e < W /\ e_len e = e_end e - e_start e
  | _ => True
  end.

Definition got (e : env) (b cnt : N) : pullres := PRGot b [mk_run (Some b) (val_of e b) cnt] cnt.

(** what a pull delivers, mathematically *)
Definition pull_spec (e : env) (n b : N) : pullres :=
  if (b <? e_len e) && (0 <? n) then got e b (N.min n (e_len e - b)) else PREnd.

Lemma W_val : W = 18446744073709551616. Proof. reflexivity. Qed.
Lemma UMAX_W : UMAX + 1 = W. Proof. reflexivity. Qed.

Lemma add_u_ok m a b : a + b < W -> add_u m a b = Ok (a + b).
Proof. unfold add_u. destruct (N.ltb_spec (a + b) W); [reflexivity|lia]. Qed.

Lemma sub_u_ok m a b : b <= a -> sub_u m a b = Ok (a - b).
Proof. unfold sub_u. destruct (N.leb_spec b a); [reflexivity|lia]. Qed.

Lemma wadd_nowrap a b : a + b < W -> wadd a b = a + b.
Proof. apply N.mod_small. Qed.

(** the end of a chunk of [n] from [b], clamped to the end [hi] of the source: the saturation never shows,
    because [hi] is a [usize] *)
Lemma clamp_end b n hi : b <= hi -> hi < W -> N.min (sat_add b n) hi = b + N.min n (hi - b).
Proof. unfold sat_add. pose proof UMAX_W. lia. Qed.

Lemma k_get_spec e b : wf_env e -> k_get e b = Ok (pull_spec e 1 b).
Proof.
  intros [Hl Hk]. unfold k_get, pull_spec, got, val_of.
  destruct (N.ltb_spec b (e_len e)) as [Hb|Hb]; cbn [andb]; [|reflexivity].
  replace (N.min 1 (e_len e - b)) with 1 by lia.
  destruct (e_kind e); try reflexivity.
  rewrite add_u_ok by lia. reflexivity.
Qed.

Lemma k_fetch_n_spec e n b : wf_env e -> k_fetch_n e n b = Ok (pull_spec e n b).
Proof.
  intros [Hl Hk]. unfold k_fetch_n, pull_spec, got, val_of.
  destruct (N.ltb_spec b (e_len e)) as [Hb|Hb]; cbn [andb].
  - set (m := N.min n (e_len e - b)).
    assert (Hm : (0 <? n) = negb (b =? b + m)).
    { destruct (N.ltb_spec 0 n), (N.eqb_spec b (b + m)); subst m; try reflexivity; lia. }
    destruct (e_kind e) eqn:K.
    1-3,5: rewrite (clamp_end b n (e_len e)) by lia; fold m; rewrite (N.max_l (b + m) b) by lia;
           rewrite Hm; destruct (b =? b + m); cbn [negb]; try reflexivity.
    2-4: rewrite sub_u_ok by lia.
    1-4: replace (b + m - b) with m by lia; reflexivity.
    + (* range: the same on values, [start + b] for [b] and [end] for [len] *)
      rewrite add_u_ok by lia. cbn [bind].
      destruct (N.ltb_spec (b + e_start e) (e_end e)) as [Hv|Hv]; [|lia].
      rewrite (clamp_end (b + e_start e) n (e_end e)) by lia.
      replace (e_end e - (b + e_start e)) with (e_len e - b) by lia. fold m.
      rewrite sub_u_ok by lia. cbn [bind].
      replace (b + e_start e + m - e_start e) with (b + m) by lia.
      rewrite Hm. destruct (b =? b + m); cbn [negb]; [reflexivity|].
      rewrite sub_u_ok by lia.
      replace (b + e_start e + m - (b + e_start e)) with m by lia.
      rewrite (N.add_comm b (e_start e)). reflexivity.
  - (* past the end every kind computes the empty interval at [len] *)
    destruct (e_kind e) eqn:K.
    1-3,5: rewrite (clamp_end (e_len e) n (e_len e)), N.sub_diag, N.min_0_r, N.add_0_r, N.max_id, N.eqb_refl by lia;
           reflexivity.
    rewrite add_u_ok by lia. cbn [bind].
    destruct (N.ltb_spec (e_len e + e_start e) (e_end e)) as [Hv|Hv]; [lia|].
    rewrite sub_u_ok by lia. cbn [bind].
    rewrite N.add_sub, N.eqb_refl. reflexivity.
Qed.

Lemma k_buf_pull_spec e c b : wf_env e -> 0 < c -> k_buf_pull e c b = Ok (pull_spec e c b).
Proof.
  intros [Hl Hk] Hc0. unfold k_buf_pull, pull_spec, got, val_of.
  destruct (N.ltb_spec b (e_len e)) as [Hb|Hb]; cbn [andb]; [|reflexivity].
  destruct (N.ltb_spec 0 c) as [_|]; [|lia].
  set (m := N.min c (e_len e - b)).
  destruct (e_kind e) eqn:K.
  1-3,5: rewrite (clamp_end b c (e_len e)) by lia; fold m.
  1: rewrite (N.max_l (b + m) b) by lia.
  2-4: rewrite sub_u_ok by lia.
  1-4: replace (b + m - b) with m by lia; reflexivity.
  - rewrite add_u_ok by lia. cbn [bind].
    destruct (N.ltb_spec (b + e_start e) (e_end e)) as [Hv|Hv]; [|lia].
    rewrite (clamp_end (b + e_start e) c (e_end e)) by lia.
    replace (e_end e - (b + e_start e)) with (e_len e - b) by lia. fold m.
    rewrite sub_u_ok by lia. cbn [bind].
    replace (b + e_start e + m - (b + e_start e)) with m by lia.
    rewrite (N.add_comm b (e_start e)). reflexivity.
Qed.

(** the request of a pull as the machine forms it *)
Definition wf_req (q : req) : Prop :=
  q_n q < W /\
  match q_mode q with
  | MSingle _ => q_n q = 1
  | MChunk _ => True
  | MBuf _ => 0 < q_n q
  end.

Lemma k_pull_spec e q b : wf_env e -> wf_req q -> k_pull e q b = Ok (pull_spec e (q_n q) b).
Proof.
  intros He [Hn Hm]. unfold k_pull. destruct (q_mode q).
  - rewrite Hm. apply k_get_spec; assumption.
  - apply k_fetch_n_spec; assumption.
  - apply k_buf_pull_spec; assumption.
Qed.

(** the same in both build modes, and never a panic: the result does not mention the mode *)
Definition with_mode (e : env) (m : mode) : env :=
  {| e_kind := e_kind e; e_adaptor := e_adaptor e; e_len := e_len e; e_start := e_start e; e_end := e_end e;
     e_hint := e_hint e; e_owning := e_owning e; e_mode := m; e_crash := e_crash e; e_gap := e_gap e |}.

Lemma k_pull_mode e m q b : wf_env e -> wf_req q -> k_pull (with_mode e m) q b = k_pull e q b.
Proof. intros He Hq. rewrite !k_pull_spec by assumption. reflexivity. Qed.

Lemma k_fetch_n_mode e m n b : wf_env e -> k_fetch_n (with_mode e m) n b = k_fetch_n e n b.
Proof. intros He. rewrite !k_fetch_n_spec by assumption. reflexivity. Qed.

Lemma k_pull_modes e q b : wf_env e -> wf_req q ->
  k_pull (with_mode e Checked) q b = k_pull (with_mode e Wrapping) q b.
Proof. intros He Hq. rewrite !k_pull_mode by assumption. reflexivity. Qed.

Lemma pull_spec_got e n b b' rs cnt :
  pull_spec e n b = PRGot b' rs cnt ->
  b' = b /\ rs = [mk_run (Some b) (val_of e b) cnt] /\ 1 <= cnt /\ cnt <= n /\ b + cnt <= e_len e /\
  (cnt < n -> b + cnt = e_len e).
Proof.
  unfold pull_spec, got. destruct (N.ltb_spec b (e_len e)) as [Hb|Hb]; cbn [andb]; [|discriminate].
  destruct (N.ltb_spec 0 n) as [Hn|Hn]; [|discriminate].
  intros E. injection E as <- <- <-. repeat split; lia.
Qed.

Lemma pull_spec_end e n b : pull_spec e n b = PREnd -> e_len e <= b \/ n = 0.
Proof.
  unfold pull_spec, got. destruct (N.ltb_spec b (e_len e)); cbn [andb]; [|lia].
  destruct (N.ltb_spec 0 n); [discriminate|lia].
Qed.
