(** * The checkers on every trace of the known-size kinds (slice, vector, array, range). *)
From Coq Require Import Lia ZArith Permutation.
From OCI Require Import Machine Checkers.
From OCI.proofs Require Import Base Trace ArithOk InvKnown.
Open Scope N_scope.

(** a source of known size: any length below 2^64; for a range any bounds below 2^64; the elements
    have a destructor exactly for the consuming kinds *)
Definition known_env (e : env) : Prop :=
  wf_env e /\ is_known (e_kind e) = true /\
  e_owning e = match e_kind e with KVec | KArray => true | _ => false end.

(** the programs use chunk sizes that are [usize] values *)
Definition wf_progs (progs : tid -> list op) : Prop := forall t, Forall wf_op (progs t).

Lemma final_no_panic e c t f : wf_env e ->
  exists r d, c_trace (final_step e c t f) = EFinal f r d :: c_trace c /\ is_panic r = false.
Proof.
  intros He. unfold final_step, seq_res.
  destruct f as [|k]; destruct (e_kind e) eqn:K; try (eexists _, _; split; reflexivity).
  (* a range: the start of the remainder lies inside the range *)
  rewrite add_u_ok; [eexists _, _; split; reflexivity|].
  unfold wf_env in He. rewrite K in He. lia.
Qed.

Section Known.

Variable e : env.
Hypothesis Hke : known_env e.
Variable progs : tid -> list op.
Hypothesis Hp : wf_progs progs.
Variable sched : list tid.

Let c := exec e (init progs) sched.
Let L := nodup Nat.eq_dec sched.

Hypothesis Hnw : nowrap (c_labels c).

Lemma sched_in_L : Forall (fun t => In t L) sched.
Proof. apply Forall_forall. intros t. apply nodup_In. Qed.

Lemma known_inv : KInv e L c.
Proof. destruct Hke as (He & Hk & Hown). apply kinv_exec; try assumption; [apply NoDup_nodup|apply sched_in_L]. Qed.

(** the invariant holds the per-event parts of the checkers C02--C06, C11, C12 as one conjunction *)
Lemma known_evs :
  chk_C02 e (c_trace c) = true /\ chk_C03 e (c_trace c) = true /\ chk_C04_order e (c_trace c) = true /\
  chk_C05 e (c_trace c) = true /\ chk_C06_stop e (c_trace c) = true /\ chk_C11 e (c_trace c) = true /\
  chk_C12_shape (c_trace c) = true.
Proof.
  pose proof (k_evs _ _ _ known_inv) as H. unfold ev_all in H. rewrite !all_rets_and, !andb_true_iff in H. tauto.
Qed.

Theorem known_C02 : chk_C02 e (c_trace c) = true.
Proof. apply known_evs. Qed.

Theorem known_C03 : chk_C03 e (c_trace c) = true.
Proof. apply known_evs. Qed.

Theorem known_C04_order : chk_C04_order e (c_trace c) = true.
Proof. apply known_evs. Qed.

Theorem known_C05 : chk_C05 e (c_trace c) = true.
Proof. apply known_evs. Qed.

Theorem known_C06_stop : chk_C06_stop e (c_trace c) = true.
Proof. apply known_evs. Qed.

Theorem known_C11 : chk_C11 e (c_trace c) = true.
Proof. apply known_evs. Qed.

Theorem known_C12_shape : chk_C12_shape (c_trace c) = true.
Proof. apply known_evs. Qed.

Theorem known_nodup : chk_C01_nodup e (c_trace c) = true.
Proof.
  unfold chk_C01_nodup. pose proof (k_til _ _ _ known_inv) as T.
  pose proof (tl_disj _ _ _ T) as H. pose proof (tl_within _ _ _ T) as Hw. unfold hist in H, Hw.
  rewrite pairwise_disj_app, !andb_true_iff in H. rewrite iv_within_app, andb_true_iff in Hw.
  rewrite (proj1 (proj1 H)). apply iv_within_mono with (frontier e (c_sh c)); [unfold frontier; lia|apply Hw].
Qed.

Theorem known_noloss : clean (c_trace c) = true -> chk_C01_noloss e (c_trace c) = true.
Proof.
  intros Hcl. unfold chk_C01_noloss.
  destruct (end_reported (c_trace c)) eqn:Ee; [|reflexivity].
  destruct (Z.eqb_spec (n_pending (c_trace c)) 0) as [Eq|]; [|reflexivity].
  pose proof known_inv as I.
  (* at a quiescent point no loop holds anything, and after the end was reported the frontier is the length *)
  pose proof (k_til _ _ _ I) as T. unfold hist in T. rewrite (quiescent_accs _ _ _ I Eq), app_nil_r in T.
  pose proof (k_end _ _ _ I Ee) as Hlen.
  assert (Hf : frontier e (c_sh c) = e_len e) by (unfold frontier; lia).
  rewrite Hf in T. unfold tiles.
  rewrite (tl_disj _ _ _ T), (tl_within _ _ _ T), (tl_total _ _ _ T Hcl), N.eqb_refl. reflexivity.
Qed.

Theorem known_C01 : check_prop 1 e (c_trace c) (c_labels c) = true.
Proof.
  cbn [check_prop]. rewrite known_nodup.
  destruct (has_skip (c_trace c) || has_panic (c_trace c)) eqn:E; [reflexivity|].
  apply known_noloss. unfold clean. rewrite E. reflexivity.
Qed.

Theorem known_C06 : check_prop 6 e (c_trace c) (c_labels c) = true.
Proof.
  cbn [check_prop]. unfold chk_C06. rewrite known_C06_stop, known_nodup, known_C02, known_C04_order. reflexivity.
Qed.

Theorem known_C12 : check_prop 12 e (c_trace c) (c_labels c) = true.
Proof.
  cbn [check_prop]. unfold c at 2. rewrite known_C12_shape, src_panic_ok, known_nodup, known_C02, known_C05.
  destruct (has_skip (c_trace c) || has_panic (c_trace c)) eqn:E; [reflexivity|].
  apply known_noloss. unfold clean. rewrite E. reflexivity.
Qed.

Theorem known_C04 : check_prop 4 e (c_trace c) (c_labels c) = true.
Proof.
  cbn [check_prop]. rewrite known_nodup, known_C04_order.
  destruct (has_panic (c_trace c)) eqn:Hnp; [reflexivity|].
  destruct Hke as (He & Hk & Hown).
  apply prefix_exec with (L := L); try assumption; [apply NoDup_nodup|apply sched_in_L].
Qed.

Theorem known_C08_run : chk_C08 e (c_trace c) = true.
Proof. apply run_C08 with (L := L); first [apply Hke|apply known_inv]. Qed.

Theorem known_C08_final t f : n_pending (c_trace c) = 0%Z -> chk_C08 e (c_trace (final_step e c t f)) = true.
Proof. apply final_C08 with (L := L); first [apply Hke|apply known_inv]. Qed.

Theorem known_C10_final t k : n_pending (c_trace c) = 0%Z -> chk_C10 e (c_trace (final_step e c t (FIntoSeq k))) = true.
Proof. apply final_C10 with (L := L); first [apply Hke|apply known_inv]. Qed.

End Known.

(** * C15: at the end of life of a consuming iterator every element has been handed out or destroyed,
      exactly once -- nothing an element owns can leak, nothing is released twice. *)
(** consumed vectors and arrays: after drop or into_seq_iter (any number taken from the remainder), at
    any quiescent point of any schedule, the positions handed out and the positions destroyed by the
    machinery are pairwise disjoint, inside the collection, and together they are all of it *)
Theorem all_released : forall e, known_env e -> e_owning e = true ->
  forall progs, wf_progs progs -> forall sched,
  nowrap (c_labels (exec e (init progs) sched)) ->
  n_pending (c_trace (exec e (init progs) sched)) = 0%Z ->
  forall t f,
  let tr := c_trace (final_step e (exec e (init progs) sched) t f) in
  pairwise_disj (taken_all e tr ++ dropped_all tr) = true /\
  iv_within (e_len e) (taken_all e tr ++ dropped_all tr) = true /\
  iv_total (taken_all e tr ++ dropped_all tr) = e_len e.
Proof.
  intros e He Hown progs Hp sched Hnw Hq t f tr.
  pose proof (known_C08_final e He progs Hp sched Hnw t f Hq) as H. fold tr in H.
  unfold chk_C08 in H. rewrite Hown in H.
  destruct (final_no_panic e (exec e (init progs) sched) t f (proj1 He)) as (r & d & Etr & _). fold tr in Etr.
  assert (has_final tr = true) as Hf by (rewrite Etr; reflexivity).
  assert (n_pending tr = 0%Z) as Hn by (rewrite Etr; cbn [n_pending]; exact Hq).
  rewrite Hf, Hn in H. cbn [andb Z.eqb] in H. unfold tiles in H. rewrite !andb_true_iff, N.eqb_eq in H. tauto.
Qed.
