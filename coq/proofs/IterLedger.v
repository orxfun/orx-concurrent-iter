(** * The ownership ledger (C08) of the owning wrapper over an arbitrary iterator (ConIterOfIter).

    On every run every element the wrapped iterator has yielded is in exactly one place: moved out to
    a caller, destroyed by the machinery, sitting in a slot of a thread's buffered iterator, or held
    by a thread that has not returned yet.  The invariant is stated on lists of POSITIONS up to
    permutation: the positions of these four places are a permutation of [0, cursor).

    The wrapped iterator need not be fused: what a thread holds inside its critical section are the
    positions the wrapped iterator really yielded to it ([got_of]), whatever the index of its ticket. *)
From Coq Require Import Lia ZArith List Permutation.
From OCI Require Import Machine Checkers.
From OCI.proofs Require Import Base Trace InvKnown ChkKnown IterBase IterProt InvIterA InvIterB ChkIter Borrowed Fold.
Import ListNotations.
Open Scope N_scope.

Lemma count_cons a l x :
  count_occ N.eq_dec (a :: l) x = ((if N.eq_dec a x then 1 else 0) + count_occ N.eq_dec l x)%nat.
Proof. cbn [count_occ]. destruct (N.eq_dec a x); reflexivity. Qed.

(** a permutation between two lists put together from the same pieces, given permutations between such
    lists: every position occurs as often on one side as on the other, which is linear arithmetic over
    the numbers of occurrences in the pieces *)
Ltac perm_count :=
  apply (Permutation_count_occ N.eq_dec);
  let x := fresh "x" in intros x;
  repeat match goal with
         | H : Permutation _ _ |- _ => generalize (proj1 (Permutation_count_occ N.eq_dec _ _) H x); clear H
         end;
  repeat match goal with H : _ |- _ => clear H end;
  repeat first [rewrite count_occ_app | rewrite count_cons]; rewrite ?count_occ_nil; intros; lia.

Lemma iv_positions_ascN a : iv_positions a = ascN (fst a) (N.to_nat (snd a)).
Proof.
  unfold iv_positions. generalize (fst a) as b, (N.to_nat (snd a)) as k. intros b k.
  revert b. induction k as [|k IH]; intros b; [reflexivity|].
  cbn [seq map ascN]. rewrite N.add_0_r. f_equal.
  rewrite <- seq_shift, map_map, <- IH. apply map_ext. intros j. lia.
Qed.

Lemma ascN_app b j k : ascN b (j + k) = ascN b j ++ ascN (b + N.of_nat j) k.
Proof.
  revert b. induction j as [|j IH]; intros b.
  - rewrite N.add_0_r. reflexivity.
  - cbn [Nat.add ascN app]. f_equal. rewrite IH. f_equal. f_equal. lia.
Qed.

Lemma iv_positions_split b x y : iv_positions (b, x + y) = iv_positions (b, x) ++ iv_positions (b + x, y).
Proof.
  rewrite !iv_positions_ascN. cbn [fst snd]. rewrite N2Nat.inj_add, ascN_app, N2Nat.id. reflexivity.
Qed.

Lemma iv_positions_cut b k n : k <= n -> iv_positions (b, n) = iv_positions (b, k) ++ iv_positions (b + k, n - k).
Proof. intros H. rewrite <- iv_positions_split. f_equal. f_equal. lia. Qed.

Lemma iv_positions_one v : iv_positions (v, 1) = [v].
Proof. rewrite iv_positions_ascN. reflexivity. Qed.

Lemma positions_of_cons a l : positions_of (a :: l) = iv_positions a ++ positions_of l.
Proof. reflexivity. Qed.

Lemma positions_of_rev l : Permutation (positions_of (rev l)) (positions_of l).
Proof. apply positions_of_perm. symmetry. apply Permutation_rev. Qed.

(** a result reports an interval only when it is not empty *)
Lemma taken_pos b k : positions_of (if k =? 0 then [] else [(b, k)]) = iv_positions (b, k).
Proof. destruct (N.eqb_spec k 0) as [->|]; [reflexivity|apply app_nil_r]. Qed.

Lemma dropped_pos b k : positions_of (if 0 <? k then [(b, k)] else []) = iv_positions (b, k).
Proof.
  destruct (N.ltb_spec 0 k); [apply app_nil_r|]. replace k with 0 by lia. reflexivity.
Qed.

Lemma nodup_app_inv (a b : list N) : NoDup (a ++ b) -> NoDup a /\ NoDup b /\ (forall x, In x a -> In x b -> False).
Proof.
  intros H.
  assert (Hx : forall x, (count_occ N.eq_dec a x + count_occ N.eq_dec b x <= 1)%nat).
  { intros x. rewrite <- count_occ_app. apply (NoDup_count_occ N.eq_dec). exact H. }
  split; [|split]; [apply (NoDup_count_occ N.eq_dec); intros x; specialize (Hx x); lia..|].
  intros x Ha Hb. apply (count_occ_In N.eq_dec) in Ha, Hb. specialize (Hx x). lia.
Qed.

Lemma pairwise_disj_positions l : NoDup (positions_of l) -> pairwise_disj l = true.
Proof.
  induction l as [|a l IH]; intros H; [reflexivity|].
  rewrite positions_of_cons in H. destruct (nodup_app_inv _ _ H) as (_ & Hl & Hd).
  cbn [pairwise_disj]. rewrite (IH Hl), andb_true_r.
  apply disj_from_forall. intros b Hb. unfold iv_disj, iv_hi.
  destruct (N.eqb_spec (snd a) 0), (N.eqb_spec (snd b) 0), (N.leb_spec (fst a + snd a) (fst b)), (N.leb_spec (fst b + snd b) (fst a));
    try reflexivity. exfalso.
  (* two intervals that overlap have the larger of their two first positions in common *)
  apply (Hd (N.max (fst a) (fst b))); [apply in_iv_positions; lia|apply in_positions_of; exists b; split; [exact Hb|lia]].
Qed.

Lemma iv_within_positions n l : (forall p, In p (positions_of l) -> p < n) -> iv_within n l = true.
Proof.
  intros H. apply forallb_forall. intros a Ha. unfold iv_hi.
  destruct (N.eqb_spec (snd a) 0) as [|Hz]; [reflexivity|]. apply N.leb_le.
  assert (fst a + snd a - 1 < n); [|lia]. apply H. apply in_positions_of. exists a. split; [exact Ha|lia].
Qed.

Lemma positions_tile l rest n :
  Permutation (positions_of l ++ rest) (iv_positions (0, n)) ->
  pairwise_disj l = true /\ iv_within n l = true /\ iv_total l + N.of_nat (length rest) = n.
Proof.
  intros P.
  assert (ND : NoDup (positions_of l ++ rest)).
  { eapply Permutation_NoDup; [symmetry; exact P|]. apply nodup_iv_positions. }
  split; [|split].
  - apply pairwise_disj_positions. apply (nodup_app_inv _ _ ND).
  - apply iv_within_positions. intros p Hp.
    assert (In p (iv_positions (0, n))) as Hin by (eapply Permutation_in; [exact P|]; apply in_or_app; left; exact Hp).
    apply in_iv_positions in Hin. cbn [fst snd] in Hin. lia.
  - pose proof (Permutation_length P) as E. rewrite app_length, length_positions_of, length_iv_positions in E.
    cbn [snd] in E. lia.
Qed.

Lemma tiles_positions l n : Permutation (positions_of l) (iv_positions (0, n)) -> tiles n l = true.
Proof.
  intros P. rewrite <- (app_nil_r (positions_of l)) in P. destruct (positions_tile _ _ _ P) as (Hd & Hw & Ht).
  rewrite N.add_0_r in Ht. unfold tiles. rewrite Hd, Hw, Ht, N.eqb_refl. reflexivity.
Qed.

Lemma slot_vals_none k : slot_vals (repeat None k) = [].
Proof. induction k as [|k IH]; [reflexivity|exact IH]. Qed.

Lemma slot_vals_app a b : slot_vals (a ++ b) = slot_vals a ++ slot_vals b.
Proof.
  induction a as [|[v|] a IH]; cbn [app slot_vals]; [reflexivity| |exact IH]. rewrite IH. reflexivity.
Qed.

Lemma slot_vals_some vs : slot_vals (map Some vs) = vs.
Proof. induction vs as [|v vs IH]; cbn [map slot_vals]; [reflexivity|]. rewrite IH. reflexivity. Qed.

Lemma write_slots_eq vs : forall slots, (length vs <= length slots)%nat ->
  write_slots slots vs = (map Some vs ++ skipn (length vs) slots, slot_vals (firstn (length vs) slots)).
Proof.
  induction vs as [|v vs IH]; intros slots H.
  - destruct slots; reflexivity.
  - destruct slots as [|s slots]; [cbn [length] in H; lia|].
    cbn [write_slots]. rewrite IH by (cbn [length] in H; lia).
    destruct s; reflexivity.
Qed.

Lemma take_slots_length k : forall l, length (take_slots k l) = length l.
Proof.
  induction k as [|k IH]; intros l; [destruct l; reflexivity|].
  destruct l as [|x l]; [reflexivity|]. cbn [take_slots length]. rewrite IH. reflexivity.
Qed.

Lemma take_slots_vals k : forall vs rest, (k <= length vs)%nat ->
  slot_vals (take_slots k (map Some vs ++ rest)) = skipn k vs ++ slot_vals rest.
Proof.
  induction k as [|k IH]; intros vs rest H.
  - assert (forall l, take_slots 0 l = l) as -> by (intros l; destruct l; reflexivity).
    rewrite slot_vals_app, slot_vals_some. reflexivity.
  - destruct vs as [|v vs]; [cbn [length] in H; lia|].
    apply IH. cbn [length] in H. lia.
Qed.

(** the elements [vs] are written over the first slots and the caller takes the first [k] of them out
    again: the others stay in the slots beside what was not overwritten, and what was overwritten is
    reported as stale *)
Lemma fill_slots vs k slots sl stale :
  (k <= length vs <= length slots)%nat -> write_slots slots vs = (sl, stale) ->
  length (take_slots k sl) = length slots /\
  Permutation (stale ++ slot_vals (take_slots k sl)) (skipn k vs ++ slot_vals slots).
Proof.
  intros Hl E. rewrite write_slots_eq in E by lia. injection E as <- <-. split.
  - rewrite take_slots_length, app_length, map_length, skipn_length. lia.
  - rewrite take_slots_vals by lia. rewrite <- (firstn_skipn (length vs) slots) at 3. rewrite slot_vals_app. perm_count.
Qed.

Lemma run_vals_asc v k : run_vals v k = ascN v k.
Proof. reflexivity. Qed.

Lemma taken_all_app e a b : taken_all e (a ++ b) = taken_all e a ++ taken_all e b.
Proof.
  induction a as [|ev a IH]; [reflexivity|]. destruct ev; cbn [app taken_all]; rewrite ?IH, ?app_assoc; reflexivity.
Qed.

Lemma dropped_all_app a b : dropped_all (a ++ b) = dropped_all a ++ dropped_all b.
Proof.
  induction a as [|ev a IH]; [reflexivity|]. destruct ev; cbn [app dropped_all]; rewrite ?IH, ?app_assoc; reflexivity.
Qed.

(** the closure of a loop is invoked on the runs delivered to it, or on the first [used] of their
    elements when it panics there; with or without their indices, these are the same positions *)
Lemma loop_invoke_pos e l crash done rs cnt inv pan : loop_invoke l crash done rs cnt = (inv, pan) ->
  match pan with
  | Some used => 1 <= used <= cnt /\ map (run_iv e) inv = map (run_iv e) (runs_take used rs)
  | None => map (run_iv e) inv = map (run_iv e) rs
  end.
Proof.
  unfold loop_invoke.
  assert (Hshape : forall rs', map (run_iv e) (map match l with LEnum => fun r => r | _ => strip_idx end rs') = map (run_iv e) rs').
  { intros rs'. rewrite map_map. apply map_ext. intros r. destruct l; reflexivity. }
  destruct crash as [k|]; [destruct (N.leb_spec done k), (N.ltb_spec k (done + cnt)); cbn [andb]|];
    intros E; injection E as <- <-; rewrite Hshape; try reflexivity.
  split; [lia|reflexivity].
Qed.

Section Ledger.

Variable e : env.
Hypothesis Hk : e_kind e = KIter.
Hypothesis Hown : e_owning e = true.
Variable L : list tid.
Hypothesis NDL : NoDup L.

Lemma pos_of_iter v : pos_of e v = v.
Proof. unfold pos_of. rewrite Hk. reflexivity. Qed.

Lemma drops_list_pos vs : positions_of (drops_iv (drops_of_list e vs)) = vs.
Proof.
  unfold drops_of_list, drops_iv. rewrite Hown. induction vs as [|v vs IH]; [reflexivity|].
  cbn [map]. rewrite positions_of_cons, IH, pos_of_iter, iv_positions_one. reflexivity.
Qed.

Lemma drops_run_pos v cnt : positions_of (drops_iv (drops_of_run e v cnt)) = iv_positions (v, cnt).
Proof.
  unfold drops_of_run. rewrite Hown, <- dropped_pos. destruct (0 <? cnt); [|reflexivity].
  rewrite pos_of_iter. reflexivity.
Qed.

Lemma one_run oi p cnt rs : p < e_len e -> rs = [mk_run oi (val_of e p) cnt] ->
  positions_of (map (run_iv e) rs) = iv_positions (p, cnt) /\
  runs_vals rs = iv_positions (p, cnt) /\
  forall k, k <= cnt ->
    positions_of (map (run_iv e) (runs_take k rs)) = iv_positions (p, k) /\
    positions_of (drops_iv (drops_after e k rs)) = iv_positions (p + k, cnt - k).
Proof.
  intros Hb ->. split; [|split].
  - cbn [map]. rewrite run_iv_at by assumption. apply app_nil_r.
  - unfold runs_vals. cbn [flat_map]. rewrite app_nil_r, run_vals_asc, (val_of_iter e Hk).
    symmetry. apply iv_positions_ascN.
  - intros k Hle. rewrite runs_take_map, drops_after_one, Hown by assumption. split; [apply taken_pos|apply dropped_pos].
Qed.

Lemma nz_run_pos oi v k : positions_of (map (run_iv e) (nz_run oi v k)) = iv_positions (v, k).
Proof.
  rewrite <- taken_pos. unfold nz_run. destruct (k =? 0); [reflexivity|].
  unfold run_iv. cbn [map]. rewrite pos_of_iter. reflexivity.
Qed.

Definition slots_pos (ts : tstate) : list N :=
  match t_buf ts with Some bf => slot_vals (bf_slots bf) | None => [] end.

(** what a thread holds: the closure invocations of its running loop and the positions it has taken
    from the wrapped iterator in its current critical section *)
Definition hpos (ts : tstate) : list N := positions_of (acc_iv e ts) ++ got_of (t_pc ts).

Definition own (ts : tstate) : list N := hpos ts ++ slots_pos ts.

Definition owns (pool : tid -> tstate) : list N := gather (fun t => own (pool t)) L.

Definition evs_pos (evs : list event) : list N := positions_of (taken_all e evs ++ dropped_all evs).

Definition slots_ok (ts : tstate) : Prop :=
  forall bf, t_buf ts = Some bf -> length (bf_slots bf) = N.to_nat (bf_c bf).

Record Led (c : cfg) : Prop := {
  l_perm  : Permutation (evs_pos (c_trace c) ++ owns (c_pool c)) (iv_positions (0, s_cur (c_sh c)));
  l_slots : forall t, slots_ok (c_pool c t)
}.

(** what a thread owns, written out for a given state *)
Ltac own_parts := unfold own, hpos, slots_pos, acc_iv; cbn [set_pc t_pc t_acc t_buf bf_slots got_of].

Lemma evs_pos_app a b : Permutation (evs_pos (a ++ b)) (evs_pos a ++ evs_pos b).
Proof. unfold evs_pos. rewrite taken_all_app, dropped_all_app, !positions_of_app. perm_count. Qed.

Lemma evs_pos_ret t r d : evs_pos [ERet t r d] = positions_of (res_taken e r) ++ positions_of (drops_iv d).
Proof. unfold evs_pos. cbn [taken_all dropped_all]. rewrite !app_nil_r, positions_of_app. reflexivity. Qed.

Lemma stale_pos ts : positions_of (drops_iv (stale_drops e ts)) = slots_pos ts.
Proof. unfold stale_drops, slots_pos. destruct (t_buf ts); [apply drops_list_pos|reflexivity]. Qed.

Lemma owns_upd pool t ts' : In t L ->
  exists rest, Permutation (owns pool) (own (pool t) ++ rest) /\
               Permutation (owns (upd pool t ts')) (own ts' ++ rest).
Proof.
  intros Hin.
  destruct (gather_upd (fun u => own (pool u)) L t (own ts') NDL Hin) as (rest & P1 & P2).
  exists rest. split; [exact P1|].
  rewrite <- P2. erewrite gather_ext; [apply Permutation_refl|].
  intros u _. unfold upd. destruct (Nat.eqb u t); reflexivity.
Qed.

(** one step of thread [t]: [delta] are the positions the wrapped iterator yields in this step *)
Lemma led_commit c t sh' ts' l evs delta :
  Led c -> In t L ->
  Permutation (evs_pos evs ++ own ts') (delta ++ own (c_pool c t)) ->
  Permutation (delta ++ iv_positions (0, s_cur (c_sh c))) (iv_positions (0, s_cur sh')) ->
  slots_ok ts' ->
  Led (commit c t sh' ts' l evs).
Proof.
  intros I Hin P Pd Hs. split; cbn [commit c_pool c_trace].
  - destruct (owns_upd (c_pool c) t ts' Hin) as (rest & P1 & P2).
    pose proof (l_perm c I) as P0. pose proof (evs_pos_app evs (c_trace c)) as Pe.
    rewrite <- Pd. clear Pd. perm_count.
  - intros u. destruct (Nat.eq_dec u t) as [->|Hn]; [rewrite upd_same; exact Hs|].
    rewrite upd_other by assumption. apply (l_slots c I).
Qed.

Lemma led_commit0 c t sh' ts' l evs :
  Led c -> In t L ->
  Permutation (evs_pos evs ++ own ts') (own (c_pool c t)) ->
  s_cur sh' = s_cur (c_sh c) ->
  slots_ok ts' ->
  Led (commit c t sh' ts' l evs).
Proof.
  intros I Hin P E Hs. apply led_commit with (delta := []); try assumption.
  rewrite E. apply Permutation_refl.
Qed.

Lemma led_silent c t : Led c -> In t L -> forall sh' ts' l evs,
  evs_pos evs = [] ->
  t_acc ts' = t_acc (c_pool c t) -> t_buf ts' = t_buf (c_pool c t) -> got_of (t_pc ts') = got_of (t_pc (c_pool c t)) ->
  s_cur sh' = s_cur (c_sh c) ->
  Led (commit c t sh' ts' l evs).
Proof.
  intros I Hin sh' ts' l evs Ev Ea Eb Eg Ec. apply led_commit0; try assumption.
  - rewrite Ev. unfold own, hpos, slots_pos, acc_iv. rewrite Ea, Eb, Eg. apply Permutation_refl.
  - unfold slots_ok. rewrite Eb. exact (l_slots c I t).
Qed.

Lemma led_take c t : Led c -> In t L -> forall p' l calls,
  got_of p' = [s_cur (c_sh c)] ++ got_of (t_pc (c_pool c t)) ->
  Led (commit c t (with_src (c_sh c) (s_cur (c_sh c) + 1) calls) (set_pc (c_pool c t) p') l []).
Proof.
  intros I Hin p' l calls E. apply led_commit with (delta := [s_cur (c_sh c)]); try assumption.
  - change (evs_pos []) with (@nil N). own_parts. rewrite E. perm_count.
  - cbn [with_src s_cur]. rewrite iv_positions_split, iv_positions_one. cbn [N.add]. perm_count.
  - exact (l_slots c I t).
Qed.

(** the thread unwinds from a panic of the wrapped iterator: what its loop handed to the closure goes to the
    caller with the panic, and the elements [xs] are destroyed *)
Lemma led_unwind c t : Led c -> In t L -> forall sh' ts' l xs,
  s_cur sh' = s_cur (c_sh c) -> t_pc ts' = PIdle -> t_acc ts' = [] ->
  Permutation (xs ++ slots_pos ts') (got_of (t_pc (c_pool c t)) ++ slots_pos (c_pool c t)) ->
  slots_ok ts' ->
  Led (commit c t sh' ts' l [ERet t (RPanic PkSource (rev (t_acc (c_pool c t)))) (drops_of_list e xs)]).
Proof.
  intros I Hin sh' ts' l xs Ec Ep Ea P Hs. apply led_commit0; try assumption.
  rewrite evs_pos_ret, drops_list_pos. cbn [res_taken]. rewrite map_rev.
  pose proof (positions_of_rev (map (run_iv e) (t_acc (c_pool c t)))) as Pr.
  unfold own, hpos, acc_iv. rewrite Ep, Ea. cbn [got_of map positions_of flat_map app]. perm_count.
Qed.

(** a pull returns the positions [p, p + cnt) it took from the wrapped iterator (under the index [b]
    of its ticket, which is [p] when the wrapped iterator is fused) *)
Lemma deliver_got_led t ts q b p cnt ts' o :
  deliver e ts q (Ok (PRGot b [mk_run (Some b) (val_of e p) cnt] cnt)) = (ts', o) ->
  Permutation (got_of (t_pc ts)) (iv_positions (p, cnt)) ->
  p < e_len e ->
  (forall k bf, q_ctx q = CTop -> q_mode q = MBuf k -> t_buf ts = Some bf -> cnt <= bf_c bf) ->
  slots_ok ts ->
  Permutation (evs_pos (ret_ev t o) ++ own ts') (own ts) /\ slots_ok ts'.
Proof.
  intros E Pg Hb Hbuf Hs.
  remember [mk_run (Some b) (val_of e p) cnt] as rs eqn:Ers.
  destruct (one_run (Some b) p cnt rs Hb Ers) as (Hall & Hvals & Hcut).
  (* the caller takes the first elements of the chunk and drops the others *)
  assert (Hchunk : forall k,
    Permutation (evs_pos [ERet t (chunk_res b rs cnt (N.min k cnt)) (drops_after e (N.min k cnt) rs)] ++ own (set_pc ts PIdle)) (own ts)).
  { intros k. destruct (Hcut (N.min k cnt)) as [Ht Hd]; [lia|].
    rewrite evs_pos_ret. unfold chunk_res. cbn [res_taken]. rewrite Ht, Hd, <- iv_positions_cut by lia.
    own_parts. perm_count. }
  unfold deliver, deliver_top, deliver_loop in E. destruct (q_ctx q) as [|lk crash].
  - destruct (q_mode q) as [v|k|k].
    + injection E as <- <-. split; [|exact Hs]. cbn [ret_ev]. rewrite evs_pos_ret.
      assert (positions_of (res_taken e (one_res (if reports_idx v then rs else map strip_idx rs))) = iv_positions (p, cnt)) as ->
        by (subst rs; destruct (reports_idx v); exact Hall).
      cbn [drops_iv map positions_of flat_map]. own_parts. perm_count.
    + injection E as <- <-. split; [apply Hchunk|exact Hs].
    + rewrite Hk in E. destruct (t_buf ts) as [bf|] eqn:Ebf; [|injection E as <- <-; split; [apply Hchunk|exact Hs]].
      (* the values go to the slots; the stale ones are destroyed; the caller takes the first ones *)
      pose proof (Hbuf k bf eq_refl eq_refl eq_refl) as Hcb. pose proof (Hs bf Ebf) as Hlen.
      destruct (Hcut (N.min k cnt)) as [Ht _]; [lia|].
      rewrite Hvals, (iv_positions_cut p (N.min k cnt) cnt) in E by lia. rewrite (iv_positions_cut p (N.min k cnt) cnt) in Pg by lia.
      destruct (write_slots (bf_slots bf) _) as [sl stale] eqn:Ew. injection E as <- <-.
      apply (fill_slots _ (length (iv_positions (p, N.min k cnt)))) in Ew; [|rewrite app_length, !length_iv_positions; cbn [snd]; lia].
      rewrite skipn_app, skipn_all, Nat.sub_diag, length_iv_positions in Ew. cbn [snd skipn app] in Ew. destruct Ew as [Hlen' Pw]. split.
      * cbn [ret_ev]. rewrite evs_pos_ret, drops_list_pos. unfold chunk_res. cbn [res_taken]. rewrite Ht.
        own_parts. rewrite Ebf. perm_count.
      * intros bf' Ebf'. injection Ebf' as <-. cbn [bf_slots]. rewrite Hlen'. exact Hlen.
  - (* inside a loop: the closure is invoked *)
    destruct (loop_invoke lk crash (total_cnt (t_acc ts)) rs cnt) as [inv pan] eqn:Ei.
    apply (loop_invoke_pos e) in Ei. destruct pan as [used|]; injection E as <- <-; (split; [|exact Hs]); cbn [ret_ev].
    + (* it panics: the loop returns what it has handed to it, the other elements are destroyed *)
      destruct Ei as [Hu Ei]. destruct (Hcut used) as [Ht Hd]; [lia|].
      rewrite (iv_positions_cut p used cnt) in Pg by lia.
      rewrite evs_pos_ret. cbn [res_taken]. rewrite Hd.
      own_parts. rewrite rev_app_distr, rev_involutive, map_app, positions_of_app, map_rev, Ei, Ht.
      pose proof (positions_of_rev (map (run_iv e) (t_acc ts))) as Pr. cbn [map positions_of flat_map app]. perm_count.
    + change (evs_pos []) with (@nil N). own_parts.
      rewrite map_app, positions_of_app, map_rev, Ei. pose proof (positions_of_rev (map (run_iv e) rs)) as Pr. rewrite Hall in Pr. perm_count.
Qed.

Lemma led_finish c t sh' l q pr :
  Led c -> In t L -> s_cur sh' = s_cur (c_sh c) ->
  (forall ts' o, deliver e (c_pool c t) q pr = (ts', o) ->
     Permutation (evs_pos (ret_ev t o) ++ own ts') (own (c_pool c t)) /\ slots_ok ts') ->
  Led (finish e c t sh' (c_pool c t) l q pr).
Proof.
  intros I Hin Ec H. unfold finish. destruct (deliver e (c_pool c t) q pr) as [ts' o].
  destruct (H _ _ eq_refl) as [P S]. apply led_commit0; assumption.
Qed.

(** a pull that took nothing reports the end; the loop it belongs to returns what it has handed to its closure *)
Lemma led_finish_end c t : Led c -> In t L -> forall sh' l q,
  got_of (t_pc (c_pool c t)) = [] -> s_cur sh' = s_cur (c_sh c) ->
  Led (finish e c t sh' (c_pool c t) l q (Ok PREnd)).
Proof.
  intros I Hin sh' l q Hg Ec. apply led_finish; try assumption. intros ts' o E. unfold deliver in E.
  destruct (q_ctx q) as [|lk crash]; injection E as <- <-; (split; [|exact (l_slots c I t)]);
    cbn [ret_ev]; rewrite evs_pos_ret; cbn [res_taken drops_iv map]; own_parts; rewrite Hg; [apply Permutation_refl|].
  rewrite map_rev. pose proof (positions_of_rev (map (run_iv e) (t_acc (c_pool c t)))) as Pr. cbn [positions_of flat_map app]. perm_count.
Qed.

(** an operation that returns at its call point takes nothing; it may destroy the elements of the
    thread's buffered iterator *)
Lemma call_ret_slots ts o b r d ts' : call_res e ts o = CRet b r d -> t_buf ts' = b -> slots_ok ts ->
  res_taken e r = [] /\ positions_of (drops_iv d) ++ slots_pos ts' = slots_pos ts /\ slots_ok ts'.
Proof.
  unfold call_res, slots_ok. intros E Eb Hs. unfold slots_pos at 1. rewrite Eb.
  destruct o as [v|n k0|n|k0| |lk n cr| | |]; try discriminate E.
  - rewrite Hk in E. destruct (n =? 0); [|discriminate E]. injection E as <- <- <-. auto.
  - destruct (n =? 0); injection E as <- <- <-; [auto|].
    rewrite stale_pos. unfold empty_slots. rewrite Hk. cbn [bf_slots]. rewrite slot_vals_none, app_nil_r.
    repeat split. intros bf Ebf. injection Ebf as <-. apply repeat_length.
  - destruct (t_buf ts) eqn:Ebf; [discriminate E|]. injection E as <- <- <-. unfold slots_pos. rewrite Ebf. auto.
  - injection E as <- <- <-. rewrite stale_pos, app_nil_r. repeat split. discriminate.
  - destruct (n =? 0); [|destruct (n =? 1); discriminate E]. injection E as <- <- <-. auto.
Qed.

Lemma led_call c t o rest :
  IInvA e L c -> Led c -> In t L -> t_pc (c_pool c t) = PIdle -> t_todo (c_pool c t) = o :: rest ->
  Led (call e c t (c_pool c t) o rest).
Proof.
  intros A I Hin Hpc Htodo.
  pose proof (a_ipc e L c t _ A Hpc) as Hacc. cbn [ipc_ok set_pc t_pc t_acc] in Hacc.
  unfold call. destruct (call_res e (c_pool c t) o) as [p|b r d] eqn:E.
  - (* the operation goes on outside the critical section *)
    destruct (a_wf e L c A t) as (_ & Hops & Hbuf). rewrite Htodo in Hops.
    destruct (call_go_iter e Hk _ _ _ E (Forall_inv Hops) Hbuf) as (_ & Cp & _).
    apply led_silent; try assumption; try reflexivity; [symmetry; exact Hacc|].
    rewrite Hpc. destruct p; try discriminate Cp; reflexivity.
  - destruct (call_ret_slots _ _ _ _ _ {| t_pc := PIdle; t_todo := rest; t_buf := b; t_acc := [] |} E eq_refl (l_slots c I t)) as (Hr & Hd & Hs').
    apply led_commit0; try assumption; [|reflexivity].
    unfold evs_pos, own at 2, hpos, acc_iv. cbn [taken_all dropped_all]. rewrite Hr, Hpc, Hacc, <- Hd. cbn [app]. rewrite app_nil_r. apply Permutation_refl.
Qed.

(** a direct pull in buffer mode is the pull of the thread's buffered iterator: it asks for the size of the buffer *)
Lemma buf_req c t q k bf : IInvA e L c -> req_of (t_pc (c_pool c t)) = Some q ->
  q_ctx q = CTop -> q_mode q = MBuf k -> t_buf (c_pool c t) = Some bf -> q_n q = bf_c bf.
Proof.
  intros A Hreq Ctx M Ebf. destruct (pull_ctx e L c t q A Hreq) as (o & older & _ & Hres & _).
  pose proof (call_op_iter e Hk _ _ _ Hres) as Ho. cbn beta iota in Ho. rewrite Ctx in Ho.
  destruct o; try contradiction; [|destruct Ho as [_ Ho]|destruct Ho as (bf' & Ebf' & Hn & _)]; congruence.
Qed.

Lemma led_step c t : IInvA e L c -> Led c -> In t L -> istep_nowrap c t -> Led (step e c t).
Proof.
  intros A I Hin Hw. unfold istep_nowrap in Hw.
  pose proof (led_silent c t I Hin) as Silent. pose proof (led_finish_end c t I Hin) as End.
  pose proof (led_take c t I Hin) as Take. pose proof (led_unwind c t I Hin) as Unw.
  (* the step by cases on the program counter, unfolded once *)
  assert (Est : step e c t = step e c t) by reflexivity. unfold step at 2 in Est.
  destruct (t_pc (c_pool c t)) as [|q|q b|q b|q b|q b g|q b g|q b g|q b g| |hm|hm] eqn:Hpc.
  - (* the call point *)
    rewrite Est. destruct (t_todo (c_pool c t)) as [|o rest] eqn:Htodo; [exact I|apply led_call; assumption].
  - (* reserving *)
    rewrite Est, Hk. apply Silent; reflexivity.
  - (* the completed flag *)
    rewrite Est. destruct (s_f (c_sh c)); [apply End|apply Silent]; reflexivity.
  - (* the yielded counter *)
    rewrite Est. destruct (b =? s_y (c_sh c)); [apply Silent; reflexivity|].
    destruct (b <? s_y (c_sh c)); [apply End|apply Silent]; reflexivity.
  - (* its turn: the completed flag once more *)
    rewrite Est. destruct (s_f (c_sh c)); [apply End|apply Silent]; reflexivity.
  - (* one call of the wrapped iterator: it panics, yields the position at its cursor, or answers None *)
    destruct (a_ipc e L c t _ A Hpc) as (Hq & _ & Hlt). pose proof (fun v M => single_got q g v Hq M Hlt) as Hsingle. rewrite Est.
    destruct (crashes_now e (c_sh c)); [apply Silent; reflexivity|].
    destruct (src_next_cases e (c_sh c)) as [[-> _]|[-> _]].
    + destruct (q_mode q); [apply Take; rewrite (Hsingle _ eq_refl)|destruct (_ =? q_n q); apply Take..]; reflexivity.
    + destruct (q_mode q); [apply Silent; try rewrite (Hsingle _ eq_refl)|apply Silent..]; reflexivity.
  - (* the wrapped iterator answered None: raising the completed flag *)
    destruct (a_ipc e L c t _ A Hpc) as (Hq & _ & Hlt). rewrite Est.
    destruct (q_mode q) eqn:M; [pose proof (single_got q g _ Hq M Hlt) as ->; apply End|apply Silent..]; reflexivity.
  - (* publishing: the pull returns *)
    destruct (pub_gen e Hk L c t q b g A Hpc Hw) as (_ & _ & [(-> & ->)|(cnt & p & Ecnt & _ & H2 & _ & H4 & Hasc & _ & ->)]).
    + apply End; reflexivity.
    + apply led_finish; try assumption; [reflexivity|]. intros ts' o E.
      apply (deliver_got_led t _ _ _ _ _ _ _ E); try assumption.
      * rewrite Hpc, iv_positions_ascN, Ecnt. cbn [fst snd]. rewrite Nat2N.id, <- Hasc. apply Permutation_rev.
      * intros k bf Ctx M Ebf. rewrite <- (buf_req c t q k bf A) by (assumption || rewrite Hpc; reflexivity). exact H2.
      * exact (l_slots c I t).
  - (* unwinding from a panic of the wrapped iterator *)
    destruct (a_ipc e L c t _ A Hpc) as (_ & _ & Hlt). rewrite Est.
    destruct (q_ctx q) eqn:Ctx; [destruct (q_mode q) eqn:M; [| |rewrite Hk; destruct (t_buf (c_pool c t)) as [bf|] eqn:Ebf; [|rewrite <- Ebf]]|].
    3: { (* what it took goes to the slots of its buffered iterator; what it overwrites there is destroyed *)
      pose proof (l_slots c I t bf Ebf) as Hlen.
      assert (Hqn : q_n q = bf_c bf) by (apply (buf_req c t q k bf A); try assumption; rewrite Hpc; reflexivity).
      destruct (write_slots (bf_slots bf) (rev g)) as [sl stale] eqn:Ew.
      apply (fill_slots _ 0) in Ew; [|rewrite rev_length; lia].
      cbn [take_slots] in Ew. destruct Ew as [Hlen' Pw]. apply Unw; try reflexivity.
      - unfold slots_pos. rewrite Ebf, Pw. apply Permutation_app_tail. symmetry. apply Permutation_rev.
      - intros bf' Ebf'. injection Ebf' as <-. cbn [bf_slots]. rewrite Hlen'. exact Hlen. }
    all: apply Unw; try reflexivity; [apply Permutation_app_tail; symmetry; apply Permutation_rev|exact (l_slots c I t)].
  - (* skip_to_end *)
    rewrite Est, Hk. apply Silent; reflexivity.
  - (* the length queries *)
    rewrite Est, Hk. destruct (s_f (c_sh c)); [|destruct (e_hint e)]; apply Silent; try reflexivity; destruct hm; reflexivity.
  - rewrite Est. apply Silent; try reflexivity. destruct hm; reflexivity.
Qed.

Lemma led_init progs : Led (init progs).
Proof.
  split; cbn [s_cur].
  - unfold owns. rewrite gather_nil by reflexivity. apply Permutation_refl.
  - intros t bf H. discriminate H.
Qed.

(** during the run: nothing is moved out or destroyed twice, and everything lies inside the source *)
Lemma run_led c : IInvA e L c -> Led c -> chk_C08 e (c_trace c) = true.
Proof.
  intros A I. unfold chk_C08. rewrite Hown.
  destruct (positions_tile _ _ _ (l_perm c I)) as (Hd & Hw & _).
  pose proof (p_cur _ _ _ _ _ (a_prot e L c A)) as Hcur.
  rewrite Hd, (iv_within_mono _ _ _ Hcur Hw), (a_nofin e L c A). reflexivity.
Qed.

Lemma quiescent_owns c : IInvA e L c -> n_pending (c_trace c) = 0%Z ->
  (forall t, In t L -> t_buf (c_pool c t) = None) -> owns (c_pool c) = [].
Proof.
  intros A Hq Hb. rewrite (a_pend e L c A) in Hq.
  apply gather_nil. intros t Ht.
  pose proof (none_pending (c_pool c) L Hq t Ht) as Ei.
  unfold own, hpos, slots_pos, acc_iv. rewrite (Hb t Ht), (iacc_idle e L c t A Ei).
  unfold is_idle in Ei. destruct (t_pc (c_pool c t)); try discriminate. reflexivity.
Qed.

Lemma quiescent_tiles c : IInvA e L c -> Led c -> n_pending (c_trace c) = 0%Z ->
  (forall t, In t L -> t_buf (c_pool c t) = None) ->
  tiles (s_cur (c_sh c)) (taken_all e (c_trace c) ++ dropped_all (c_trace c)) = true.
Proof.
  intros A I Hq Hb. apply tiles_positions. pose proof (l_perm c I) as P.
  rewrite (quiescent_owns c A Hq Hb), app_nil_r in P. exact P.
Qed.

(** the end of life: what the owner takes and what is destroyed is exactly the rest of the source *)
Lemma final_led c f r d :
  Permutation (evs_pos (c_trace c)) (iv_positions (0, s_cur (c_sh c))) -> s_cur (c_sh c) <= e_len e ->
  n_pending (c_trace c) = 0%Z ->
  positions_of (res_taken e r) ++ positions_of (drops_iv d) = iv_positions (s_cur (c_sh c), e_len e - s_cur (c_sh c)) ->
  chk_C08 e (EFinal f r d :: c_trace c) = true.
Proof.
  intros P Hcur Hq Hrd. unfold chk_C08. rewrite Hown. cbn [n_pending]. rewrite Hq. cbn [Z.eqb].
  apply tiles_positions. cbn [taken_all dropped_all]. unfold evs_pos in P. rewrite !positions_of_app in *.
  rewrite (iv_positions_cut 0 (s_cur (c_sh c)) (e_len e)) by exact Hcur. cbn [N.add]. rewrite <- Hrd. perm_count.
Qed.

Lemma final_C08_iter c t f : IInvA e L c -> Led c -> n_pending (c_trace c) = 0%Z ->
  (forall u, In u L -> t_buf (c_pool c u) = None) ->
  chk_C08 e (c_trace (final_step e c t f)) = true.
Proof.
  intros A I Hq Hb.
  pose proof (l_perm c I) as P. rewrite (quiescent_owns c A Hq Hb), app_nil_r in P.
  pose proof (p_cur _ _ _ _ _ (a_prot e L c A)) as Hcur.
  unfold final_step. rewrite Hk. destruct f as [|k].
  - apply final_led; try assumption. apply drops_run_pos.
  - rewrite N.min_l by exact Hcur. apply final_led; try assumption.
    cbn [res_taken]. rewrite drops_run_pos, nz_run_pos, !(val_of_iter e Hk). symmetry. apply iv_positions_cut. lia.
Qed.

End Ledger.

Lemma iter_run_led e progs sched : iter_env e -> e_owning e = true -> wf_progs progs ->
  nowrap (c_labels (exec e (init progs) sched)) ->
  IInvA e (nodup Nat.eq_dec sched) (exec e (init progs) sched) /\ Led e (nodup Nat.eq_dec sched) (exec e (init progs) sched).
Proof.
  intros (He & Hk) Ho Hp Hw. pose proof (NoDup_nodup Nat.eq_dec sched) as NDL. set (L := nodup Nat.eq_dec sched) in *.
  apply (exec_inv e label_nowrap (fun t => In t L) (fun c => IInvA e L c /\ Led e L c)) with (s := sched) (c := init progs);
    [| |split; [apply iA_init; exact Hp|apply led_init]|exact Hw].
  - intros c t Hin [A I] Hw'. apply (istep_labels e Hk) in Hw'. split; [apply iA_step|apply led_step]; assumption.
  - apply Forall_forall. intros t Ht. apply nodup_In. exact Ht.
Qed.

Theorem iter_C08_run : forall e, iter_env e -> forall progs, wf_progs progs -> forall sched,
  nowrap (c_labels (exec e (init progs) sched)) ->
  chk_C08 e (c_trace (exec e (init progs) sched)) = true.
Proof.
  intros e He progs Hp sched Hw.
  destruct (e_owning e) eqn:Ho.
  - destruct (iter_run_led e progs sched He Ho Hp Hw) as [A I]. exact (run_led e Ho _ _ A I).
  - unfold chk_C08. rewrite Ho. destruct (borrowed_source_untouched e Ho progs sched) as [H _]. rewrite H. reflexivity.
Qed.

Theorem iter_C08_final : forall e, iter_env e -> forall progs, wf_progs progs -> forall sched,
  nowrap (c_labels (exec e (init progs) sched)) ->
  n_pending (c_trace (exec e (init progs) sched)) = 0%Z ->
  (forall t, In t (nodup Nat.eq_dec sched) -> t_buf (c_pool (exec e (init progs) sched) t) = None) ->
  forall t f, chk_C08 e (c_trace (final_step e (exec e (init progs) sched) t f)) = true.
Proof.
  intros e He progs Hp sched Hw Hq Hb t f.
  destruct (e_owning e) eqn:Ho.
  - destruct (iter_run_led e progs sched He Ho Hp Hw) as [A I]. exact (final_C08_iter e (proj2 He) Ho _ _ t f A I Hq Hb).
  - unfold chk_C08. rewrite Ho. destruct (borrowed_source_untouched e Ho progs sched) as [_ H]. rewrite (H t f). reflexivity.
Qed.

(** every element the wrapped iterator has yielded is moved out or destroyed exactly once: at every
    quiescent point at which no thread keeps a buffered iterator, the positions moved out to callers and the
    positions destroyed tile [0, cursor) -- every wrapped iterator that owns its elements, fused or not *)
Theorem iter_yielded_exactly_once : forall e, iter_env e -> e_owning e = true -> forall progs, wf_progs progs -> forall sched,
  nowrap (c_labels (exec e (init progs) sched)) ->
  n_pending (c_trace (exec e (init progs) sched)) = 0%Z ->
  (forall t, In t (nodup Nat.eq_dec sched) -> t_buf (c_pool (exec e (init progs) sched) t) = None) ->
  tiles (s_cur (c_sh (exec e (init progs) sched)))
        (taken_all e (c_trace (exec e (init progs) sched)) ++ dropped_all (c_trace (exec e (init progs) sched))) = true.
Proof.
  intros e He Ho progs Hp sched Hw Hq Hb.
  destruct (iter_run_led e progs sched He Ho Hp Hw) as [A I]. exact (quiescent_tiles e _ _ A I Hq Hb).
Qed.

Print Assumptions iter_C08_run.
Print Assumptions iter_yielded_exactly_once.
Print Assumptions iter_C08_final.

(** * Owning and borrowing wrapped iterators run alike: whether the elements have a destructor changes
      nothing in a run except the lists of destroyed elements its events report.  The positions moved
      out to the callers are the same, which transfers the ownership ledger (no position is moved out
      twice) from the owning wrapper to the wrapper over an iterator of references. *)
Definition with_owning (e : env) (o : bool) : env :=
  {| e_kind := e_kind e; e_adaptor := e_adaptor e; e_len := e_len e; e_start := e_start e; e_end := e_end e;
     e_hint := e_hint e; e_owning := o; e_mode := e_mode e; e_crash := e_crash e; e_gap := e_gap e |}.

Definition strip_ev (ev : event) : event :=
  match ev with ERet t r _ => ERet t r [] | EFinal f r _ => EFinal f r [] | x => x end.

Section Own.

Variable e : env.
Hypothesis Hk : e_kind e = KIter.
Variable o : bool.
Let e' := with_owning e o.

(** the same [commit], up to the destroyed elements of its event *)
Ltac alike_commit := apply agree_commit; [assumption|reflexivity].

Lemma alike_finish c c' t sh ts l q pr :
  agree strip_ev c c' -> agree strip_ev (finish e c t sh ts l q pr) (finish e' c' t sh ts l q pr).
Proof.
  intros H. unfold finish, deliver.
  destruct (q_ctx q) as [|lk cr]; (destruct pr as [[|b rs cnt]|k]; [alike_commit| |alike_commit]).
  - unfold deliver_top. change (e_kind e') with (e_kind e). rewrite Hk. destruct (q_mode q); [alike_commit..|].
    destruct (t_buf ts) as [bf|]; [destruct (write_slots _ _)|]; alike_commit.
  - unfold deliver_loop. destruct (loop_invoke lk cr (total_cnt (t_acc ts)) rs cnt) as [inv [used|]]; alike_commit.
Qed.

Lemma alike_call c c' t ts op0 rest :
  agree strip_ev c c' -> agree strip_ev (call e c t ts op0 rest) (call e' c' t ts op0 rest).
Proof.
  intros H. pose proof H as (H1 & _). unfold call, call_res. rewrite <- H1.
  change (e_kind e') with (e_kind e). rewrite Hk.
  destruct op0 as [v|n k|n|k| |lk n cr| | |]; try alike_commit.
  - destruct (n =? 0); alike_commit.
  - destruct (n =? 0); alike_commit.
  - destruct (t_buf ts); alike_commit.
  - destruct (n =? 0); [|destruct (n =? 1)]; alike_commit.
Qed.

(** a leaf of [step]: the same [finish] or the same [commit] *)
Ltac alike_leaf := first [apply alike_finish; assumption | alike_commit].

Lemma step_owning c c' t : agree strip_ev c c' -> agree strip_ev (step e c t) (step e' c' t).
Proof.
  intros H. pose proof H as (H1 & H2 & _). destruct c as [sh pool tr lb], c' as [sh' pool' tr' lb'].
  cbn [c_sh c_pool] in H1, H2. subst sh' pool'. unfold step. cbn [c_sh c_pool].
  change (e_kind e') with (e_kind e). rewrite Hk.
  destruct (t_pc (pool t)) as [|q|q b|q b|q b|q b g|q b g|q b g|q b g| |hm|hm].
  - destruct (t_todo (pool t)); [exact H|apply alike_call; exact H].
  - alike_leaf.
  - destruct (s_f sh); alike_leaf.
  - destruct (b =? s_y sh); [|destruct (b <? s_y sh)]; alike_leaf.
  - destruct (s_f sh); alike_leaf.
  - change (crashes_now e') with (crashes_now e). change (src_next e') with (src_next e).
    destruct (crashes_now e sh); [alike_leaf|].
    destruct (q_mode q), (src_next e sh); try destruct (_ =? q_n q); alike_leaf.
  - destruct (q_mode q); alike_leaf.
  - destruct (q_mode q); [alike_leaf| |]; (destruct (s_y sh =? b); [destruct (rev g)|]; alike_leaf).
  - destruct (q_ctx q); [destruct (q_mode q); [| |destruct (t_buf (pool t)); [destruct (write_slots _ _)|]]|]; alike_leaf.
  - alike_leaf.
  - change (e_hint e') with (e_hint e). destruct (s_f sh); [alike_leaf|]. destruct (e_hint e); alike_leaf.
  - alike_leaf.
Qed.

Lemma exec_owning sched : forall c c', agree strip_ev c c' -> agree strip_ev (exec e c sched) (exec e' c' sched).
Proof.
  induction sched as [|t s IH]; intros c c' H; [exact H|]. rewrite !exec_cons. apply IH. apply step_owning. exact H.
Qed.

(** what is moved out is read off the results: neither the destructor nor the lists of destroyed elements matter *)
Lemma taken_all_owning tr : taken_all e' tr = taken_all e tr.
Proof.
  induction tr as [|ev tr IH]; [reflexivity|]. destruct ev; cbn [taken_all]; rewrite ?IH; reflexivity.
Qed.

Lemma taken_all_strip tr : taken_all e (map strip_ev tr) = taken_all e tr.
Proof.
  induction tr as [|ev tr IH]; [reflexivity|]. destruct ev; cbn [map strip_ev taken_all]; rewrite IH; reflexivity.
Qed.

End Own.

(** ** no position is moved out to two callers: every wrapped iterator, fused or not, owning or not *)

Theorem iter_taken_nodup : forall e, iter_env e -> forall progs, wf_progs progs -> forall sched,
  nowrap (c_labels (exec e (init progs) sched)) ->
  pairwise_disj (taken_all e (c_trace (exec e (init progs) sched))) = true.
Proof.
  intros e He progs Hp sched Hw.
  destruct (exec_owning e (proj2 He) true sched (init progs) (init progs)) as (_ & _ & Hl & Ht); [repeat split; reflexivity|].
  rewrite Hl in Hw. pose proof (iter_C08_run (with_owning e true) He progs Hp sched Hw) as H8.
  unfold chk_C08 in H8. cbn [with_owning e_owning] in H8.
  rewrite pairwise_disj_app, !andb_true_iff in H8. destruct H8 as ((((H8 & _) & _) & _) & _).
  rewrite <- taken_all_strip, Ht, taken_all_strip, <- (taken_all_owning e true). exact H8.
Qed.

Print Assumptions iter_taken_nodup.
