(** * Traces, steps and runs: pending calls; one step as a labelled transition of its thread; lifting step
      invariants to runs; suffixes and monotone flags of a trace; where a call may return with the panic
      of the wrapped iterator. *)
From Coq Require Import Lia ZArith.
From OCI Require Import Machine Checkers.
From OCI.proofs Require Import Base.
Open Scope N_scope.

(** the pending call of thread [t]: its operation and the trace before the call; [None] when the
    latest event of [t] is a return (or [t] has no event) *)
Fixpoint pend_call (t : tid) (tr : list event) : option (op * list event) :=
  match tr with
  | [] => None
  | ECall u o :: tl => if Nat.eqb u t then Some (o, tl) else pend_call t tl
  | ERet u _ _ :: tl => if Nat.eqb u t then None else pend_call t tl
  | EFinal _ _ _ :: tl => pend_call t tl
  end.

Lemma pend_call_ind t o older (P : list event -> Prop) :
  P (ECall t o :: older) ->
  (forall u o' tr, u <> t -> P tr -> P (ECall u o' :: tr)) ->
  (forall u r d tr, u <> t -> P tr -> P (ERet u r d :: tr)) ->
  (forall f r d tr, P tr -> P (EFinal f r d :: tr)) ->
  forall tr, pend_call t tr = Some (o, older) -> P tr.
Proof.
  intros H0 Hc Hr Hf. induction tr as [|ev tr IH]; cbn [pend_call]; [discriminate|].
  destruct ev as [u o'|u r d|f r d]; [| |intros E; apply Hf, IH, E]; destruct (Nat.eqb_spec u t) as [->|Hn]; intros E.
  - injection E as <- <-. exact H0.
  - apply Hc; [exact Hn|apply IH, E].
  - discriminate E.
  - apply Hr; [exact Hn|apply IH, E].
Qed.

Lemma pend_split t tr x : pend_call t tr = Some x -> split_call t tr = Some x.
Proof.
  destruct x as [o older]. revert tr. apply pend_call_ind; cbn [split_call]; intros; try assumption.
  - rewrite Nat.eqb_refl. reflexivity.
  - destruct (Nat.eqb_spec u t); [contradiction|assumption].
Qed.

(** [s] is a suffix of [tr]: an older state of the trace *)
Definition suffix (s tr : list event) : Prop := exists p, tr = p ++ s.

Lemma suffix_refl tr : suffix tr tr. Proof. exists []. reflexivity. Qed.
Lemma suffix_cons ev s tr : suffix s tr -> suffix s (ev :: tr).
Proof. intros [p ->]. exists (ev :: p). reflexivity. Qed.
Lemma suffix_app p s tr : suffix s tr -> suffix s (p ++ tr).
Proof. intros [p' ->]. exists (p ++ p'). now rewrite app_assoc. Qed.
Lemma suffix_trans a b c : suffix a b -> suffix b c -> suffix a c.
Proof. intros [p ->] [p' ->]. exists (p' ++ p). now rewrite app_assoc. Qed.

Lemma pend_suffix t tr o older : pend_call t tr = Some (o, older) -> suffix older tr.
Proof. apply pend_call_ind; intros; apply suffix_cons; first [apply suffix_refl|assumption]. Qed.

Lemma pend_call_other_call t u o tr : u <> t -> pend_call t (ECall u o :: tr) = pend_call t tr.
Proof. cbn [pend_call]. destruct (Nat.eqb_spec u t); [contradiction|reflexivity]. Qed.
Lemma pend_call_other_ret t u r d tr : u <> t -> pend_call t (ERet u r d :: tr) = pend_call t tr.
Proof. cbn [pend_call]. destruct (Nat.eqb_spec u t); [contradiction|reflexivity]. Qed.
Lemma pend_call_self_call t o tr : pend_call t (ECall t o :: tr) = Some (o, tr).
Proof. cbn [pend_call]. now rewrite Nat.eqb_refl. Qed.
Lemma pend_call_self_ret t r d tr : pend_call t (ERet t r d :: tr) = None.
Proof. cbn [pend_call]. now rewrite Nat.eqb_refl. Qed.

(** ** one step, as a labelled transition of the stepping thread

    A step of thread [t] reads the shared state and [t]'s own state only.  It either changes nothing or is
    one [commit]: the label records one access by [t] that reports what it found in the shared state
    ([access]), the new shared state is what that access makes of the old one ([sh_after]), and the events
    recorded are [t]'s own ([ev_of]).  [step_local] says so for two configurations at once that agree on the
    shared state and on [t]: they take the same step. *)

Definition ev_of (t : tid) (ev : event) : Prop :=
  match ev with ECall u _ | ERet u _ _ => u = t | EFinal _ _ _ => False end.

Definition sh_after (l : label) (sh : shared) : shared :=
  match l with
  | LAtom _ SC AAdd n old _ => with_c sh (wadd old n)
  | LAtom _ SC AStore v _ _ => with_c sh v
  | LAtom _ SY AAdd n old _ => with_y sh (wadd old n)
  | LAtom _ SF AStore _ _ _ => with_f sh true
  | LSrc _ (Some _) => with_src sh (s_cur sh + 1) (s_calls sh + 1)
  | LSrc _ None | LSrcPanic _ => with_src sh (s_cur sh) (s_calls sh + 1)
  | _ => sh
  end.

(** the machine never stores to the yielded counter and never adds to the flag *)
Definition access (t : tid) (sh : shared) (l : label) : Prop :=
  match l with
  | LCall u | LSrc u _ | LSrcPanic u | LAtom u SC AStore _ _ _ => u = t
  | LAtom u SC ALoad _ ret _ => u = t /\ ret = s_c sh
  | LAtom u SC AAdd _ old _ => u = t /\ old = s_c sh
  | LAtom u SY ALoad _ ret _ => u = t /\ ret = s_y sh
  | LAtom u SY AAdd _ old _ => u = t /\ old = s_y sh
  | LAtom u SF ALoad _ ret _ => u = t /\ ret = bN (s_f sh)
  | LAtom u SF AStore v _ _ => u = t /\ v = 1
  | LAtom _ SY AStore _ _ _ | LAtom _ SF AAdd _ _ _ => False
  end.

(** what one step records, and how that goes with the thread being inside an operation before the step
    (program counter [p]) and after it ([p']): nothing, and the thread stays inside or outside; its call, and
    it is inside afterwards; its return, and it was inside; or the call and the return of an operation that
    performs no access *)
Definition evs_pc (t : tid) (p p' : pc) (evs : list event) : Prop :=
  match evs with
  | [] => p = PIdle <-> p' = PIdle
  | [ECall u _] => u = t /\ p = PIdle /\ p' <> PIdle
  | [ERet u _ _] => u = t /\ p <> PIdle /\ p' = PIdle
  | [ERet u _ _; ECall v _] => u = t /\ v = t /\ p = PIdle /\ p' = PIdle
  | _ => False
  end.

Definition step_evs (t : tid) (evs : list event) : Prop :=
  evs = [] \/ (exists ev, evs = [ev] /\ ev_of t ev) \/ exists r d o, evs = [ERet t r d; ECall t o].

Lemma evs_pc_shape t p p' evs : evs_pc t p p' evs -> step_evs t evs.
Proof.
  destruct evs as [|[u o|u r d|f r d] [|[v o'|v r' d'|f' r' d'] [|ev evs]]]; cbn [evs_pc]; try contradiction.
  - left. reflexivity.
  - intros (-> & _). right; left. eexists. split; reflexivity.
  - intros (-> & _). right; left. eexists. split; reflexivity.
  - intros (-> & -> & _). right; right. eexists _, _, _. reflexivity.
Qed.

Lemma step_evs_of t evs : step_evs t evs -> Forall (ev_of t) evs.
Proof. intros [->|[(ev & -> & H)|(r & d & o & ->)]]; repeat constructor. exact H. Qed.

Lemma evs_pc_of t p p' evs : evs_pc t p p' evs -> Forall (ev_of t) evs.
Proof. intros H. exact (step_evs_of t evs (evs_pc_shape t p p' evs H)). Qed.

(** a thread is inside an operation exactly when its latest event is a call: one step keeps it so, and
    moves the number of pending calls with it (for every kind) *)
Definition busy (p : pc) : Z := match p with PIdle => 0%Z | _ => 1%Z end.

Lemma busy_inside p : p <> PIdle -> busy p = 1%Z.
Proof. intros H. destruct p; [contradiction H|..]; reflexivity. Qed.

Lemma evs_pc_pending t p p' evs tr : evs_pc t p p' evs ->
  n_pending (evs ++ tr) = (n_pending tr - busy p + busy p')%Z.
Proof.
  destruct evs as [|[u o|u r d|f r d] [|[v o'|v r' d'|f' r' d'] [|ev evs]]]; cbn [evs_pc app n_pending]; try contradiction.
  - intros [H1 H2]. assert (E : busy p' = busy p); [|lia].
    destruct p; [rewrite (H1 eq_refl); reflexivity|..]; apply busy_inside; intros E; discriminate (H2 E).
  - intros (_ & -> & H). rewrite (busy_inside p' H). cbn [busy]. lia.
  - intros (_ & H & ->). rewrite (busy_inside p H). cbn [busy]. lia.
  - intros (_ & _ & -> & ->). cbn [busy]. lia.
Qed.

(** [deliver] leaves the thread outside an operation exactly when the operation returns; otherwise a loop
    goes on with its next reservation *)
Lemma deliver_idle e ts q pr :
  t_pc (fst (deliver e ts q pr)) = match snd (deliver e ts q pr) with Some _ => PIdle | None => PRes q end.
Proof.
  unfold deliver. destruct (q_ctx q) as [|lk cr]; destruct pr as [[|b rs cnt]|k]; try reflexivity.
  - destruct (deliver_top e ts q b rs cnt) as [ts' rd] eqn:E. cbn [fst snd].
    unfold deliver_top in E. destruct (q_mode q); try (injection E as <- _; reflexivity).
    destruct (e_kind e), (t_buf ts); try (injection E as <- _; reflexivity).
    destruct (write_slots _ _). injection E as <- _. reflexivity.
  - unfold deliver_loop. destruct (loop_invoke _ _ _ _ _) as [inv [used|]]; reflexivity.
Qed.

(** [k1], [k2] are what one step of thread [t] at [p] makes of [c1], [c2]: nothing, or the same commit *)
Definition same_step (t : tid) (sh : shared) (p : pc) (c1 c2 k1 k2 : cfg) : Prop :=
  (k1 = c1 /\ k2 = c2) \/
  exists sh' ts l evs, sh' = sh_after l sh /\ access t sh l /\ evs_pc t p (t_pc ts) evs /\
    k1 = commit c1 t sh' ts l evs /\ k2 = commit c2 t sh' ts l evs.

Lemma same_commit t sh p c1 c2 sh' ts l evs :
  sh' = sh_after l sh -> access t sh l -> evs_pc t p (t_pc ts) evs ->
  same_step t sh p c1 c2 (commit c1 t sh' ts l evs) (commit c2 t sh' ts l evs).
Proof. right. exists sh', ts, l, evs. auto. Qed.

Lemma same_finish e t sh p c1 c2 sh' ts l q pr :
  sh' = sh_after l sh -> access t sh l -> p <> PIdle ->
  same_step t sh p c1 c2 (finish e c1 t sh' ts l q pr) (finish e c2 t sh' ts l q pr).
Proof.
  intros H1 H2 Hp. unfold finish. pose proof (deliver_idle e ts q pr) as Hd.
  destruct (deliver e ts q pr) as [ts' [[r d]|]]; cbn [fst snd] in Hd;
    (apply same_commit; [exact H1|exact H2|]); cbn [ret_ev evs_pc]; rewrite Hd; [tauto|].
  split; [intros E; contradiction|discriminate].
Qed.

Lemma same_call e t sh c1 c2 ts o rest : c_sh c1 = sh -> c_sh c2 = sh ->
  same_step t sh PIdle c1 c2 (call e c1 t ts o rest) (call e c2 t ts o rest).
Proof.
  intros <- H2. unfold call. rewrite H2.
  destruct (call_res e ts o) as [p|b r d] eqn:E; apply same_commit; try reflexivity; cbn [evs_pc t_pc]; [|tauto].
  repeat split. intros ->. unfold call_res in E.
  destruct o as [v|n k|n|k| |l n cr| | |]; try discriminate E.
  - destruct (e_kind e), (n =? 0); discriminate E.
  - destruct (n =? 0); discriminate E.
  - destruct (t_buf ts); discriminate E.
  - destruct (n =? 0); [discriminate E|]. destruct (n =? 1); discriminate E.
Qed.

(** a leaf of [step]: a [finish] or a [commit] whose shared state and label are read off the goal *)
Ltac same_leaf :=
  first [ apply same_finish; [| |discriminate]
        | apply same_commit; [| |cbn [evs_pc set_pc t_pc]; repeat split; discriminate] ];
  [ reflexivity | cbn [access]; first [congruence | split; congruence] ].

Lemma step_local e c1 c2 t :
  c_sh c1 = c_sh c2 -> c_pool c1 t = c_pool c2 t ->
  same_step t (c_sh c1) (t_pc (c_pool c1 t)) c1 c2 (step e c1 t) (step e c2 t).
Proof.
  intros Hsh Hp. unfold step. rewrite <- Hsh, <- Hp.
  destruct (t_pc (c_pool c1 t)) as [|q|q b|q b|q b|q b got|q b got|q b got|q b got| |hm|hm].
  - destruct (t_todo (c_pool c1 t)); [left; split; reflexivity|].
    apply same_call; [reflexivity|symmetry; exact Hsh].
  - destruct (e_kind e); same_leaf.
  - destruct (s_f (c_sh c1)) eqn:?; same_leaf.
  - destruct (b =? s_y (c_sh c1)); [|destruct (b <? s_y (c_sh c1))]; same_leaf.
  - destruct (s_f (c_sh c1)) eqn:?; same_leaf.
  - destruct (crashes_now e (c_sh c1)); [same_leaf|].
    destruct (q_mode q), (src_next e (c_sh c1)); try destruct (_ =? q_n q); same_leaf.
  - destruct (q_mode q); same_leaf.
  - destruct (q_mode q); [same_leaf| |];
      (destruct (s_y (c_sh c1) =? b); [destruct (rev got)|]; same_leaf).
  - destruct (q_ctx q); [destruct (q_mode q); [| |destruct (e_kind e); [| | | |destruct (t_buf (c_pool c1 t)); [destruct (write_slots _ _)|]]]|];
      same_leaf.
  - destruct (e_kind e); try same_leaf;
      destruct (k_fetch_n e (e_len e) (s_c (c_sh c1))) as [[|]|]; same_leaf.
  - destruct (e_kind e); try same_leaf.
    destruct (s_f (c_sh c1)) eqn:?; [same_leaf|]. destruct (e_hint e); same_leaf.
  - same_leaf.
Qed.

Lemma step_commit_pc e c t : step e c t = c \/
  exists ts l evs, access t (c_sh c) l /\ evs_pc t (t_pc (c_pool c t)) (t_pc ts) evs /\
    step e c t = commit c t (sh_after l (c_sh c)) ts l evs.
Proof.
  destruct (step_local e c c t eq_refl eq_refl) as [[H _]|(sh' & ts & l & evs & -> & Ha & He & H & _)].
  - left. exact H.
  - right. exists ts, l, evs. auto.
Qed.

Lemma step_commit e c t : step e c t = c \/
  exists ts l evs, access t (c_sh c) l /\ step_evs t evs /\
    step e c t = commit c t (sh_after l (c_sh c)) ts l evs.
Proof.
  destruct (step_commit_pc e c t) as [H|(ts & l & evs & Ha & He & H)]; [left; exact H|].
  right. exists ts, l, evs. eauto using evs_pc_shape.
Qed.

Lemma step_pool_other e c u t : t <> u -> c_pool (step e c u) t = c_pool c t.
Proof.
  destruct (step_commit e c u) as [->|(ts & l & evs & _ & _ & ->)]; [reflexivity|].
  apply upd_other.
Qed.

(** two configurations that are the same up to a view [f] of their histories stay so under a step *)
Definition agree (f : event -> event) (c c' : cfg) : Prop :=
  c_sh c = c_sh c' /\ c_pool c = c_pool c' /\ c_labels c = c_labels c' /\
  map f (c_trace c) = map f (c_trace c').

Lemma agree_refl f c : agree f c c.
Proof. repeat split; reflexivity. Qed.

Lemma agree_same c c' : agree (fun ev => ev) c c' -> c = c'.
Proof.
  destruct c as [sh p tr ls], c' as [sh' p' tr' ls']. unfold agree. cbn [c_sh c_pool c_labels c_trace].
  rewrite !map_id. intros (-> & -> & -> & ->). reflexivity.
Qed.

Lemma agree_commit f c c' t sh ts l evs evs' :
  agree f c c' -> map f evs = map f evs' ->
  agree f (commit c t sh ts l evs) (commit c' t sh ts l evs').
Proof.
  intros (H1 & H2 & H3 & H4) He. unfold agree, commit. cbn [c_sh c_pool c_labels c_trace].
  rewrite H2, H3, !map_app, H4, He. repeat split; reflexivity.
Qed.

Lemma agree_step f e c c' t : agree f c c' -> agree f (step e c t) (step e c' t).
Proof.
  intros H. pose proof H as (H1 & H2 & _).
  destruct (step_local e c c' t H1 (f_equal (fun p => p t) H2)) as [[-> ->]|(sh & ts & l & evs & _ & _ & _ & -> & ->)];
    [exact H|apply agree_commit; [exact H|reflexivity]].
Qed.

(** the call point, for every kind *)
Lemma step_idle_nil e c t : t_pc (c_pool c t) = PIdle -> t_todo (c_pool c t) = [] -> step e c t = c.
Proof. intros H1 H2. unfold step. rewrite H1, H2. reflexivity. Qed.

Lemma step_idle_call e c t o rest : t_pc (c_pool c t) = PIdle -> t_todo (c_pool c t) = o :: rest ->
  step e c t = call e c t (c_pool c t) o rest.
Proof. intros H1 H2. unfold step. rewrite H1, H2. reflexivity. Qed.

Lemma exec_cons e c u s : exec e c (u :: s) = exec e (step e c u) s.
Proof. reflexivity. Qed.

Lemma exec_app e c a b : exec e c (a ++ b) = exec e (exec e c a) b.
Proof. apply fold_left_app. Qed.

Lemma exec_snoc e c s t : exec e c (s ++ [t]) = step e (exec e c s) t.
Proof. apply exec_app. Qed.

Lemma step_history e c u :
  exists evs ls, c_trace (step e c u) = evs ++ c_trace c /\ c_labels (step e c u) = ls ++ c_labels c.
Proof.
  destruct (step_commit e c u) as [->|(ts & l & evs & _ & _ & ->)].
  - exists [], []. split; reflexivity.
  - exists evs, [l]. split; reflexivity.
Qed.

Lemma exec_history e s : forall c,
  exists evs ls, c_trace (exec e c s) = evs ++ c_trace c /\ c_labels (exec e c s) = ls ++ c_labels c.
Proof.
  induction s as [|u s IH]; intros c.
  - exists [], []. split; reflexivity.
  - rewrite exec_cons. destruct (IH (step e c u)) as (evs & ls & Ht & Hl).
    destruct (step_history e c u) as (evs0 & ls0 & Ht0 & Hl0).
    exists (evs ++ evs0), (ls ++ ls0). rewrite Ht, Hl, Ht0, Hl0, <- !app_assoc. split; reflexivity.
Qed.

(** the shape of the invariants of this development: [P] is kept by every step of a thread in [S] whose labels
    satisfy [Q] ("the access does not wrap the counter") *)
Lemma exec_inv e (Q : label -> Prop) (S : tid -> Prop) (P : cfg -> Prop) :
  (forall c t, S t -> P c -> Forall Q (c_labels (step e c t)) -> P (step e c t)) ->
  forall s c, Forall S s -> P c -> Forall Q (c_labels (exec e c s)) -> P (exec e c s).
Proof.
  intros Hstep. induction s as [|u s IH]; intros c Hs Hc Hq; [exact Hc|].
  inversion Hs as [|? ? Hu Hs']; subst. rewrite exec_cons in *.
  apply IH; [exact Hs'| |exact Hq]. apply Hstep; [exact Hu|exact Hc|].
  destruct (exec_history e s (step e c u)) as (_ & ls & _ & Hl).
  rewrite Hl in Hq. apply Forall_app in Hq. apply Hq.
Qed.

Lemma suffix_mono (P : list event -> Prop) :
  (forall ev tr, P tr -> P (ev :: tr)) -> forall s tr, suffix s tr -> P s -> P tr.
Proof. intros Hc s tr [p ->] H. induction p as [|ev p IH]; [exact H|]. apply Hc, IH. Qed.

Lemma cov_app e p tr : cov e (p ++ tr) = cov e p ++ cov e tr.
Proof.
  induction p as [|ev p IH]; cbn [app cov]; [reflexivity|].
  destruct ev; try exact IH. rewrite IH. apply app_assoc.
Qed.

Lemma cov_suffix_maxhi e s tr : suffix s tr -> iv_maxhi (cov e s) <= iv_maxhi (cov e tr).
Proof. intros [p ->]. rewrite cov_app, iv_maxhi_app. apply N.le_max_r. Qed.

Lemma end_reported_cons ev tr : end_reported tr = true -> end_reported (ev :: tr) = true.
Proof. intros H. destruct ev; cbn [end_reported]; try assumption. rewrite H. apply orb_true_r. Qed.

Lemma end_reported_suffix s tr : suffix s tr -> end_reported s = true -> end_reported tr = true.
Proof. apply (suffix_mono (fun tr => end_reported tr = true)), end_reported_cons. Qed.

Lemma skip_returned_cons ev tr : skip_returned tr = true -> skip_returned (ev :: tr) = true.
Proof.
  intros H. destruct ev as [u o|u r d|f r d]; cbn [skip_returned]; try assumption.
  destruct (split_call u tr) as [[[] ?]|]; try assumption; reflexivity.
Qed.

Lemma skip_returned_suffix s tr : suffix s tr -> skip_returned s = true -> skip_returned tr = true.
Proof. apply (suffix_mono (fun tr => skip_returned tr = true)), skip_returned_cons. Qed.

Lemma has_skip_cons ev tr : has_skip tr = true -> has_skip (ev :: tr) = true.
Proof. intros H. destruct ev as [u o|u r d|f r d]; cbn [has_skip]; try assumption. destruct o; assumption || reflexivity. Qed.

Lemma has_panic_cons ev tr : has_panic tr = true -> has_panic (ev :: tr) = true.
Proof. intros H. destruct ev; cbn [has_panic]; try assumption; rewrite H; apply orb_true_r. Qed.

Lemma has_panic_app_false evs tr : has_panic (evs ++ tr) = false -> has_panic tr = false.
Proof.
  induction evs as [|ev evs IH]; [auto|]. cbn [app]. intros H.
  destruct (has_panic (evs ++ tr)) eqn:E; [rewrite (has_panic_cons ev _ E) in H; discriminate|]. apply IH. reflexivity.
Qed.

Definition clean (tr : list event) : bool := negb (has_skip tr || has_panic tr).

Lemma clean_cons ev tr : clean (ev :: tr) = true -> clean tr = true.
Proof.
  unfold clean. rewrite !negb_true_iff, !orb_false_iff. intros [H1 H2]. split.
  - destruct (has_skip tr) eqn:E; [|reflexivity]. rewrite (has_skip_cons ev tr E) in H1. discriminate.
  - destruct (has_panic tr) eqn:E; [|reflexivity]. rewrite (has_panic_cons ev tr E) in H2. discriminate.
Qed.

Lemma clean_call u o tr : clean (ECall u o :: tr) = match o with Skip => false | _ => clean tr end.
Proof. destruct o; reflexivity. Qed.

Lemma clean_ret u r d tr : clean (ERet u r d :: tr) = negb (is_panic r) && clean tr.
Proof.
  unfold clean. cbn [has_skip has_panic].
  destruct (is_panic r), (has_skip tr); reflexivity.
Qed.

Lemma n_pending_call u o tr : n_pending (ECall u o :: tr) = (n_pending tr + 1)%Z.
Proof. reflexivity. Qed.
Lemma n_pending_ret u r d tr : n_pending (ERet u r d :: tr) = (n_pending tr - 1)%Z.
Proof. reflexivity. Qed.

Lemma all_rets_ret P t r d tr : all_rets P (ERet t r d :: tr) = P t r d tr && all_rets P tr.
Proof. reflexivity. Qed.
Lemma all_rets_call P t o tr : all_rets P (ECall t o :: tr) = all_rets P tr.
Proof. reflexivity. Qed.

Lemma all_rets_and P Q tr :
  all_rets (fun t r d tl => P t r d tl && Q t r d tl) tr = all_rets P tr && all_rets Q tr.
Proof.
  induction tr as [|ev tr IH]; [reflexivity|]. destruct ev; cbn [all_rets]; try exact IH.
  rewrite IH. destruct (P t r d tr), (Q t r d tr), (all_rets P tr); reflexivity.
Qed.

Lemma all_rets_impl (P Q : tid -> res -> list drops -> list event -> bool) tr :
  (forall t r d tl, P t r d tl = true -> Q t r d tl = true) -> all_rets P tr = true -> all_rets Q tr = true.
Proof.
  intros H. induction tr as [|ev tr IH]; [reflexivity|]. destruct ev; cbn [all_rets]; try exact IH.
  rewrite !andb_true_iff. intros [H1 H2]. split; [apply H; exact H1|apply IH; exact H2].
Qed.

Lemma buf_size_other_call t u o tr : u <> t -> buf_size t (ECall u o :: tr) = buf_size t tr.
Proof.
  cbn [buf_size]. destruct o; try reflexivity.
  destruct (Nat.eqb_spec u t); [contradiction|reflexivity].
Qed.
Lemma buf_size_ret t u r d tr : buf_size t (ERet u r d :: tr) = buf_size t tr.
Proof. reflexivity. Qed.
Lemma buf_size_call_nonbuf t o tr : (forall c, o <> BufNew c) -> buf_size t (ECall t o :: tr) = buf_size t tr.
Proof. intros H. destruct o; try reflexivity. contradiction (H c); reflexivity. Qed.

Lemma buf_size_pend t tr o older :
  pend_call t tr = Some (o, older) -> (forall c, o <> BufNew c) -> buf_size t tr = buf_size t older.
Proof.
  intros E Hb. revert tr E. apply pend_call_ind; intros; try assumption.
  - apply buf_size_call_nonbuf, Hb.
  - rewrite buf_size_other_call; assumption.
Qed.

Lemma cov_of_pend e t tr o older : pend_call t tr = Some (o, older) -> cov_of e t tr = cov_of e t older.
Proof.
  revert tr. apply pend_call_ind; cbn [cov_of]; intros; try assumption; [reflexivity|].
  destruct (Nat.eqb_spec u t); [contradiction|assumption].
Qed.

Lemma cov_of_maxhi e t tr : iv_maxhi (cov_of e t tr) <= iv_maxhi (cov e tr).
Proof.
  induction tr as [|ev tr IH]; cbn [cov_of cov]; [lia|].
  destruct ev as [u o'|u r d|f r d]; try exact IH.
  rewrite !iv_maxhi_app. destruct (Nat.eqb u t); cbn [iv_maxhi]; lia.
Qed.

Definition zero_reported (tr : list event) : bool :=
  match min_reported tr with Some 0 => true | _ => false end.

Definition stopped (tr : list event) : bool := end_reported tr || skip_returned tr || zero_reported tr.

Lemma zero_reported_cons ev tr : zero_reported tr = true -> zero_reported (ev :: tr) = true.
Proof.
  unfold zero_reported. destruct ev as [u o|u r d|f r d]; cbn [min_reported]; try (intros H; exact H).
  destruct (min_reported tr) as [[|p]|]; try discriminate. intros _.
  destruct (len_answer r) as [[n|]|]; try reflexivity. rewrite N.min_0_r. reflexivity.
Qed.

Lemma stopped_cons ev tr : stopped tr = true -> stopped (ev :: tr) = true.
Proof.
  unfold stopped. rewrite !orb_true_iff. intros [[H|H]|H].
  - left; left. apply end_reported_cons, H.
  - left; right. apply skip_returned_cons, H.
  - right. apply zero_reported_cons, H.
Qed.

Lemma stopped_suffix s tr : suffix s tr -> stopped s = true -> stopped tr = true.
Proof. apply (suffix_mono (fun tr => stopped tr = true)), stopped_cons. Qed.

Lemma min_reported_cons ev tr m :
  (exists m', min_reported tr = Some m' /\ m' <= m) -> exists m', min_reported (ev :: tr) = Some m' /\ m' <= m.
Proof.
  intros (m1 & H & L). destruct ev as [u o|u r d|f r d]; cbn [min_reported]; try (exists m1; split; [exact H|exact L]).
  rewrite H. destruct (len_answer r) as [[n|]|]; [exists (N.min n m1); split; [reflexivity|lia]|exists m1; split; [reflexivity|exact L]..].
Qed.

Lemma min_reported_suffix s tr m :
  suffix s tr -> min_reported s = Some m -> exists m', min_reported tr = Some m' /\ m' <= m.
Proof.
  intros Hs H. apply (suffix_mono _ (fun ev tr => min_reported_cons ev tr m) s tr Hs).
  exists m. split; [exact H|apply N.le_refl].
Qed.

Lemma min_reported_ret_none t r d tr : len_answer r = None -> min_reported (ERet t r d :: tr) = min_reported tr.
Proof. intros H. cbn [min_reported]. rewrite H. reflexivity. Qed.

Lemma zero_reported_ret_none t r d tr : len_answer r = None -> zero_reported (ERet t r d :: tr) = zero_reported tr.
Proof. intros H. unfold zero_reported. rewrite min_reported_ret_none by assumption. reflexivity. Qed.

Lemma split_call_has_skip u tr older : split_call u tr = Some (Skip, older) -> has_skip tr = true.
Proof.
  induction tr as [|ev tr IH]; cbn [split_call]; [discriminate|]. intros E.
  destruct ev as [v o| |]; [|apply has_skip_cons, IH, E..].
  destruct (Nat.eqb v u); [injection E as -> _; reflexivity|apply has_skip_cons, IH, E].
Qed.

Lemma skip_returned_has_skip tr : skip_returned tr = true -> has_skip tr = true.
Proof.
  induction tr as [|ev tr IH]; [discriminate|]. intros H. apply has_skip_cons.
  destruct ev as [u o|u r d|f r d]; cbn [skip_returned] in H; [exact (IH H)| |exact (IH H)].
  destruct (split_call u tr) as [[[] older]|] eqn:E; try exact (IH H). exact (split_call_has_skip u tr older E).
Qed.

Lemma end_strong_end tr : end_reported_strong tr = true -> end_reported tr = true.
Proof.
  induction tr as [|ev tr IH]; cbn [end_reported_strong end_reported]; [discriminate|].
  destruct ev as [u o|u r d|f r d]; try exact IH.
  intros H. apply orb_true_iff.
  destruct r; try (right; exact (IH H)); destruct (split_call u tr) as [[[] older]|]; try (right; exact (IH H)).
  - left. reflexivity.
  - apply orb_true_iff in H. destruct H as [H|H]; [left; exact H|right; exact (IH H)].
  - left. reflexivity.
Qed.

(** [has_more] never answers [Yes(0)] in the model *)
Lemma yes_zero_nolen r : len_answer r = None -> yes_zero r = false.
Proof. destruct r as [| | | |o|h| | |]; try reflexivity; destruct h; discriminate. Qed.

Lemma yes_zero_len_res hm o : yes_zero (len_res hm o) = false.
Proof. destruct hm; [|reflexivity]. destruct o as [[|p]|]; reflexivity. Qed.

(** a property of the reported lengths survives a return when it holds of the length the return reports, if any:
    the new minimum is that length or the old minimum *)
Lemma min_reported_ret (P : N -> Prop) t r d tr :
  (forall n, len_answer r = Some (Some n) -> P n) -> (forall m, min_reported tr = Some m -> P m) ->
  forall m, min_reported (ERet t r d :: tr) = Some m -> P m.
Proof.
  intros Hr Htr m. cbn [min_reported]. destruct (len_answer r) as [[n|]|]; try apply Htr.
  destruct (min_reported tr) as [m0|]; intros E; injection E as <-; [|apply Hr; reflexivity].
  destruct (N.min_dec n m0) as [-> | ->]; [apply Hr|apply Htr]; reflexivity.
Qed.

Lemma len_answer_len_res hm a : len_answer (len_res hm a) = Some a.
Proof. destruct hm; [|reflexivity]. destruct a as [[|p]|]; reflexivity. Qed.

Lemma res_cover_len_res e hm a : res_cover e (len_res hm a) = [].
Proof. destruct hm; reflexivity. Qed.

(** the per-event check of a length answer [a]; the query is quiescent when its call is the latest event and
    nothing was pending before it *)
Lemma ev_C11_len e t hm a tl o older :
  split_call t tl = Some (o, older) ->
  (n_pending older = 0%Z -> tl = ECall t o :: older -> has_panic older = false ->
     match a with
     | Some n => if knows_len e then n =? (if skip_returned older then 0 else e_len e - iv_total (cov e older)) else n =? 0
     | None => negb (knows_len e) && negb (end_reported_strong older) && negb (skip_returned older)
     end = true /\
     (end_reported_strong older = true -> a = Some 0)) ->
  (forall n m, a = Some n -> min_reported older = Some m -> n <= m) ->
  ev_C11 e t (len_res hm a) [] tl = true.
Proof.
  intros Hs Hq Hm. unfold ev_C11, delivers_nothing.
  rewrite yes_zero_len_res, Hs, len_answer_len_res, res_cover_len_res. cbn [negb andb].
  apply andb_true_iff. split; [apply andb_true_iff; split|destruct (min_reported older) as [[|p]|]; reflexivity].
  - destruct ((n_pending older =? 0)%Z && called_last t tl && negb (has_panic older)) eqn:G; [|reflexivity].
    apply andb_true_iff in G. destruct G as [G Gp]. apply andb_true_iff in G. destruct G as [Gn Gc].
    apply Z.eqb_eq in Gn. apply negb_true_iff in Gp.
    assert (Htl : tl = ECall t o :: older).
    { destruct tl as [|[u o'|u r' d'|f r' d'] tl']; try discriminate Gc. apply Nat.eqb_eq in Gc. subst u.
      cbn [split_call] in Hs. rewrite Nat.eqb_refl in Hs. injection Hs as -> ->. reflexivity. }
    destruct (Hq Gn Htl Gp) as [H1 H2].
    rewrite H1. destruct (end_reported_strong older); [rewrite (H2 eq_refl)|]; reflexivity.
  - destruct a as [n|]; [|reflexivity]. destruct (min_reported older) as [m|]; [|reflexivity].
    apply N.leb_le. apply (Hm n m); reflexivity.
Qed.

(** a loop returns with the panic of its closure only when the closure was told to panic *)
Lemma loop_panic_user l crash done rs cnt inv used acc :
  loop_invoke l crash done rs cnt = (inv, Some used) -> loop_panic_ok crash (RPanic PkUser acc) = true.
Proof. destruct crash as [k|]; [intros _; reflexivity|intros H; discriminate H]. Qed.

(** ** a call returns with the panic of the wrapped iterator only when there is a wrapped iterator and it
       was told to panic: on every run of the model, whatever the environment, the programs, the schedule *)

(** the computations of the known-size kinds panic in their additions and subtractions only: the property
    is passed on by everything they are composed of *)
Definition overflows_only {A} (o : outcome A) : Prop := forall k, o = Panic k -> k = PkOverflow.

Lemma oo_ok {A} (a : A) : overflows_only (Ok a).
Proof. discriminate. Qed.

Lemma oo_add m a b : overflows_only (add_u m a b).
Proof. unfold add_u. intros k. destruct (a + b <? W); [discriminate|]. destruct m; [|discriminate]. intros [= <-]. reflexivity. Qed.

Lemma oo_sub m a b : overflows_only (sub_u m a b).
Proof. unfold sub_u. intros k. destruct (b <=? a); [discriminate|]. destruct m; [|discriminate]. intros [= <-]. reflexivity. Qed.

Lemma oo_bind {A B} (o : outcome A) (f : A -> outcome B) :
  overflows_only o -> (forall a, overflows_only (f a)) -> overflows_only (bind o f).
Proof. intros Ho Hf k. destruct o as [a|k']; cbn [bind]; [exact (Hf a k)|intros [= <-]; exact (Ho k' eq_refl)]. Qed.

Lemma oo_if {A} (c : bool) (x y : outcome A) : overflows_only x -> overflows_only y -> overflows_only (if c then x else y).
Proof. destruct c; auto. Qed.

Lemma k_fetch_n_oo e n b : overflows_only (k_fetch_n e n b).
Proof. unfold k_fetch_n. destruct (e_kind e); cbv zeta; auto 8 using @oo_ok, oo_add, oo_sub, @oo_bind, @oo_if. Qed.

Lemma k_pull_oo e q b : overflows_only (k_pull e q b).
Proof.
  unfold k_pull, k_get, k_buf_pull. destruct (q_mode q); [|apply k_fetch_n_oo|];
    destruct (e_kind e); cbv zeta; auto 8 using @oo_ok, oo_add, oo_sub, @oo_bind, @oo_if.
Qed.

Section SrcPanic.

Variable e : env.

Definition res_src_ok (r : res) : bool :=
  match r with RPanic PkSource _ => src_may_panic e | _ => true end.

(** the program counters of the wrapper over an iterator are reached for that kind only, the unwinding one
    only when the wrapped iterator was told to panic *)
Definition pc_src_ok (p : pc) : Prop :=
  match p with
  | PUnw _ _ _ => src_may_panic e = true
  | PChkF _ _ | PLdY _ _ | PChkT _ _ | PSrc _ _ _ | PSetF _ _ _ | PPub _ _ _ => e_kind e = KIter
  | _ => True
  end.

Definition SInv (c : cfg) : Prop :=
  (forall t, pc_src_ok (t_pc (c_pool c t))) /\ all_rets (fun _ r _ _ => res_src_ok r) (c_trace c) = true.

Definition ev_src_ok (ev : event) : Prop :=
  match ev with ERet _ r _ => res_src_ok r = true | _ => True end.

Lemma overflow_not_source : PkOverflow <> PkSource. Proof. discriminate. Qed.

Lemma res_src_ok_other k rs : k <> PkSource -> res_src_ok (RPanic k rs) = true.
Proof. intros H. destruct k; try reflexivity. contradiction H; reflexivity. Qed.

Lemma len_res_src_ok hm o : res_src_ok (len_res hm o) = true.
Proof. destruct hm; reflexivity. Qed.

Lemma sinv_commit c t sh ts l evs :
  pc_src_ok (t_pc ts) -> Forall ev_src_ok evs -> SInv c -> SInv (commit c t sh ts l evs).
Proof.
  intros Hts Hnew [Hpcs Hevs]. split.
  - intros u. cbn [commit c_pool]. unfold upd. destruct (Nat.eqb u t); [exact Hts|apply Hpcs].
  - cbn [commit c_trace]. induction Hnew as [|ev evs Hev _ IH]; [exact Hevs|].
    destruct ev as [u o|u r d|f r d]; cbn [app all_rets]; [exact IH| |exact IH]. rewrite Hev. exact IH.
Qed.

(** a finished pull returns with the panic it is given or with the panic of the closure of a loop *)
Lemma sinv_finish c t sh l q pr :
  (forall k, pr = Panic k -> k <> PkSource) -> SInv c -> SInv (finish e c t sh (c_pool c t) l q pr).
Proof.
  intros Hk Hs. unfold finish, deliver.
  destruct (q_ctx q) as [|lk cr], pr as [[|b rs cnt]|k];
    [
    |unfold deliver_top; destruct (q_mode q) as [v|k|k];
       [unfold one_res; destruct (if reports_idx v then rs else map strip_idx rs)
       |
       |destruct (e_kind e); [| | | |destruct (t_buf (c_pool c t)); [destruct (write_slots _ _)|]]]
    | |
    |unfold deliver_loop; destruct (loop_invoke lk cr (total_cnt (t_acc (c_pool c t))) rs cnt) as [inv [used|]]
    | ];
    (apply sinv_commit; [exact I|repeat constructor|exact Hs]); apply res_src_ok_other, Hk; reflexivity.
Qed.

Lemma pull_not_source q b k : k_pull e q b = Panic k -> k <> PkSource.
Proof. intros H. rewrite (k_pull_oo e q b k H). exact overflow_not_source. Qed.

Lemma sinv_call c t o rest : SInv c -> SInv (call e c t (c_pool c t) o rest).
Proof.
  intros Hs. unfold call, call_res.
  destruct o as [v|n k|n|k| |lk n cr| | |];
    [
    |destruct (e_kind e); [| | | |destruct (n =? 0)]
    |destruct (n =? 0)
    |destruct (t_buf (c_pool c t))
    |
    |destruct (n =? 0); [|destruct (n =? 1)]
    | | | ];
    (apply sinv_commit; [exact I|repeat constructor|exact Hs]).
Qed.

(** a leaf of [step] away from the two places that matter: a pull finishes with a result of its own, the thread
    moves on inside the wrapper ([Hpc]) or outside it, a call returns with something else than that panic *)
Ltac sinv_leaf Hs Hpc :=
  lazymatch goal with
  | |- SInv (finish _ _ _ _ _ _ _ _) => apply sinv_finish; [discriminate|exact Hs]
  | |- SInv (commit _ _ _ _ _ _) =>
      apply sinv_commit; [first [exact Hpc|exact I]|repeat constructor; first [exact Hpc|apply len_res_src_ok]|exact Hs]
  end.

Lemma sinv_step c t : SInv c -> SInv (step e c t).
Proof.
  intros Hs. pose proof (proj1 Hs t) as Hpc. unfold step.
  destruct (t_pc (c_pool c t)) as [|q|q b|q b|q b|q b got|q b got|q b got|q b got| |hm|hm]; cbn [pc_src_ok] in Hpc.
  - destruct (t_todo (c_pool c t)); [exact Hs|apply sinv_call, Hs].
  - (* only a wrapped iterator enters the wrapper; the other kinds pull at once, and panic in their arithmetic *)
    destruct (e_kind e) eqn:Ek; [apply sinv_finish; [apply pull_not_source|exact Hs]..|apply sinv_commit; [exact Ek|constructor|exact Hs]].
  - destruct (s_f (c_sh c)); sinv_leaf Hs Hpc.
  - destruct (b =? s_y (c_sh c)); [|destruct (b <? s_y (c_sh c))]; sinv_leaf Hs Hpc.
  - destruct (s_f (c_sh c)); sinv_leaf Hs Hpc.
  - (* the wrapped next() panics only when it was told to *)
    destruct (crashes_now e (c_sh c)) eqn:Ecr.
    + apply sinv_commit; [|constructor|exact Hs]. cbn [set_pc t_pc pc_src_ok]. unfold src_may_panic, crashes_now in *.
      rewrite Hpc. destruct (e_crash e); [reflexivity|discriminate Ecr].
    + destruct (q_mode q), (src_next e (c_sh c)); try destruct (_ =? q_n q); sinv_leaf Hs Hpc.
  - destruct (q_mode q); sinv_leaf Hs Hpc.
  - destruct (q_mode q); [sinv_leaf Hs Hpc| |];
      (destruct (s_y (c_sh c) =? b); [destruct (rev got); sinv_leaf Hs Hpc|];
       apply sinv_finish; [intros pk [= <-]; discriminate|exact Hs]).
  - (* unwinding: the one place where the panic of the wrapped iterator is returned *)
    destruct (q_ctx q); [destruct (q_mode q); [| |destruct (e_kind e); [| | | |destruct (t_buf (c_pool c t)); [destruct (write_slots _ _)|]]]|];
      sinv_leaf Hs Hpc.
  - destruct (e_kind e); try sinv_leaf Hs Hpc;
      (destruct (k_fetch_n e (e_len e) (s_c (c_sh c))) as [[|]|k] eqn:Ef; try sinv_leaf Hs Hpc;
       apply sinv_commit; [exact I|repeat constructor; rewrite (k_fetch_n_oo _ _ _ _ Ef); reflexivity|exact Hs]).
  - destruct (e_kind e); try sinv_leaf Hs Hpc. destruct (s_f (c_sh c)); [sinv_leaf Hs Hpc|]. destruct (e_hint e); sinv_leaf Hs Hpc.
  - sinv_leaf Hs Hpc.
Qed.

Lemma sinv_exec sched : forall c, SInv c -> SInv (exec e c sched).
Proof.
  induction sched as [|t sched IH]; intros c I; [exact I|]. apply IH, sinv_step, I.
Qed.

Theorem src_panic_ok progs sched : chk_C12_src e (c_trace (exec e (init progs) sched)) = true.
Proof.
  assert (I0 : SInv (init progs)) by (split; [intros t; exact I|reflexivity]).
  destruct (sinv_exec sched _ I0) as [_ H].
  revert H. apply all_rets_impl. intros t r d tl H. unfold ev_C12_src.
  destruct (split_call t tl) as [[[] older]|]; try reflexivity. destruct r as [| | | | | | | |[] rs]; try reflexivity. exact H.
Qed.

End SrcPanic.
