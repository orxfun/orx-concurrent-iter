(** * Clones by simulation.

    [ConIterOfSlice] and [ConIterOfRange] are [Clone]: a clone starts at the CURRENT position counter [k]
    of its original ([Multi.clone_of]).  The single-iterator theorems are about runs from [init progs]
    (counter 0).  This file closes the gap by a simulation instead of re-proving the invariants with an
    offset:
    (1) frame lemmas: [step] / [exec] read only the shared state and the states of the scheduled threads,
        and append the same events and labels to whatever traces the configurations carry;
    (2) a prefix run of ONE extra thread [t0] brings a fresh iterator to the counter [k] (for any
        [k < 2^64], also beyond the length);
    (3) the run of the clone is the tail of the combined run "prefix, then the clone's schedule" from
        [init], to which the existing theorems apply; the checkers are transported from the combined
        trace [X ++ T0] to the clone's own trace [X]. *)
From Coq Require Import Lia ZArith List Bool Permutation.
From OCI Require Import Machine Checkers.
From OCI.proofs Require Import Base Trace ArithOk InvKnown ChkKnown Progress Multi History.
Import ListNotations.
Open Scope N_scope.

Lemma step_frame e c1 c2 t :
  c_sh c1 = c_sh c2 -> c_pool c1 t = c_pool c2 t ->
  (step e c1 t = c1 /\ step e c2 t = c2) \/
  exists sh ts l evs, Forall (ev_of t) evs /\
    step e c1 t = commit c1 t sh ts l evs /\ step e c2 t = commit c2 t sh ts l evs.
Proof.
  intros Hsh Hp.
  destruct (step_local e c1 c2 t Hsh Hp) as [H|(sh & ts & l & evs & _ & _ & Hev & H)]; [left; exact H|].
  right. exists sh, ts, l, evs. split; [exact (evs_pc_of _ _ _ _ Hev)|exact H].
Qed.

Lemma exec_frame_gen e (S : tid -> Prop) s : forall c1 c2,
  (forall t, In t s -> S t) ->
  c_sh c1 = c_sh c2 -> (forall t, S t -> c_pool c1 t = c_pool c2 t) ->
  exists X Y,
    c_trace (exec e c1 s) = X ++ c_trace c1 /\ c_trace (exec e c2 s) = X ++ c_trace c2 /\
    c_labels (exec e c1 s) = Y ++ c_labels c1 /\ c_labels (exec e c2 s) = Y ++ c_labels c2 /\
    c_sh (exec e c1 s) = c_sh (exec e c2 s) /\
    (forall t, S t -> c_pool (exec e c1 s) t = c_pool (exec e c2 s) t) /\
    Forall (fun ev => exists t, S t /\ ev_of t ev) X.
Proof.
  induction s as [|u s IH]; intros c1 c2 HS Hsh Hp.
  - exists [], []. repeat split; auto.
  - rewrite !exec_cons.
    assert (HS' : forall t, In t s -> S t) by (intros t Ht; apply HS; right; exact Ht).
    assert (Hu : S u) by (apply HS; left; reflexivity).
    destruct (step_frame e c1 c2 u Hsh (Hp u Hu)) as [[-> ->]|(sh & ts & l & evs & Hev & -> & ->)].
    + apply IH; assumption.
    + destruct (IH (commit c1 u sh ts l evs) (commit c2 u sh ts l evs) HS' eq_refl)
        as (X & Y & H1 & H2 & H3 & H4 & H5 & H6 & H7).
      { intros t Ht. cbn [commit c_pool]. unfold upd. destruct (Nat.eqb t u); [reflexivity|apply Hp; exact Ht]. }
      exists (X ++ evs), (Y ++ [l]). rewrite <- !app_assoc.
      repeat split; auto.
      apply Forall_app. split; [exact H7|].
      eapply Forall_impl; [|exact Hev]. intros ev Hv. exists u. split; assumption.
Qed.

Lemma exec_frame e s c1 c2 :
  c_sh c1 = c_sh c2 -> (forall t, In t s -> c_pool c1 t = c_pool c2 t) ->
  exists X Y,
    c_trace (exec e c1 s) = X ++ c_trace c1 /\ c_trace (exec e c2 s) = X ++ c_trace c2 /\
    c_labels (exec e c1 s) = Y ++ c_labels c1 /\ c_labels (exec e c2 s) = Y ++ c_labels c2 /\
    c_sh (exec e c1 s) = c_sh (exec e c2 s) /\
    (forall t, In t s -> c_pool (exec e c1 s) t = c_pool (exec e c2 s) t) /\
    Forall (fun ev => exists t, In t s /\ ev_of t ev) X.
Proof. intros Hsh Hp. apply (exec_frame_gen e (fun t => In t s)); auto. Qed.

(** the two lemmas in their plain form *)
Corollary step_frame_plain e c1 c2 t :
  c_sh c1 = c_sh c2 -> c_pool c1 t = c_pool c2 t ->
  (step e c1 t = c1 /\ step e c2 t = c2) \/
  exists sh ts l evs, step e c1 t = commit c1 t sh ts l evs /\ step e c2 t = commit c2 t sh ts l evs.
Proof.
  intros H1 H2. destruct (step_frame e c1 c2 t H1 H2) as [H|(sh & ts & l & evs & _ & H)]; [left; exact H|right; eauto].
Qed.

Corollary exec_frame_plain e s : forall c1 c2,
  c_sh c1 = c_sh c2 -> (forall t, In t s -> c_pool c1 t = c_pool c2 t) ->
  exists X Y,
    c_trace (exec e c1 s) = X ++ c_trace c1 /\ c_trace (exec e c2 s) = X ++ c_trace c2 /\
    c_labels (exec e c1 s) = Y ++ c_labels c1 /\ c_labels (exec e c2 s) = Y ++ c_labels c2 /\
    c_sh (exec e c1 s) = c_sh (exec e c2 s) /\
    (forall t, In t s -> c_pool (exec e c1 s) t = c_pool (exec e c2 s) t).
Proof.
  intros c1 c2 H1 H2. destruct (exec_frame e s c1 c2 H1 H2) as (X & Y & A & B & C & D & E & F & _).
  exists X, Y. repeat split; assumption.
Qed.

Lemma solo_run e t0 s c : Forall (eq t0) s ->
  (exists X, c_trace (exec e c s) = X ++ c_trace c /\ Forall (ev_of t0) X) /\
  (forall t, t <> t0 -> c_pool (exec e c s) t = c_pool c t).
Proof.
  rewrite Forall_forall. intros Hs. split.
  - destruct (exec_frame e s c c eq_refl (fun _ _ => eq_refl)) as (X & _ & H1 & _ & _ & _ & _ & _ & H7).
    exists X. split; [exact H1|]. eapply Forall_impl; [|exact H7].
    intros ev (t & Ht & Hev). rewrite (Hs t Ht). exact Hev.
  - intros t Hn. apply unscheduled_thread_untouched. intros Ht. apply Hn. symmetry. apply Hs. exact Ht.
Qed.

Definition clonable (e : env) : Prop := e_kind e = KSlice \/ e_kind e = KRange.

(** a direct pull of [t] ([Next], [Chunk]) takes two steps: the call, then the fetch_add of the counter, at which
    the pull, whatever it obtained, returns *)
Lemma pull_steps e c t o n md rest :
  clonable e ->
  let q := {| q_n := n; q_mode := md; q_ctx := CTop |} in
  let ts := {| t_pc := PRes q; t_todo := rest; t_buf := None; t_acc := [] |} in
  match md with MBuf _ => False | _ => True end ->
  c_pool c t = init_ts (o :: rest) -> call_res e (init_ts (o :: rest)) o = CGo (PRes q) ->
  exists r d,
    deliver e ts q (k_pull e q (s_c (c_sh c))) = (init_ts rest, Some (r, d)) /\
    step e (step e c t) t =
    commit (commit c t (c_sh c) ts (LCall t) [ECall t o]) t
      (with_c (c_sh c) (wadd (s_c (c_sh c)) (k_incr e q))) (init_ts rest)
      (LAtom t SC AAdd (k_incr e q) (s_c (c_sh c)) (o_res q)) [ERet t r d].
Proof.
  intros Hcl q ts Hmd Hp Hcall.
  assert (Hdel : exists r d, deliver e ts q (k_pull e q (s_c (c_sh c))) = (init_ts rest, Some (r, d))).
  { destruct (k_pull _ _ _) as [[|b rs cnt]|pk]; destruct md; try contradiction; eexists _, _; reflexivity. }
  destruct Hdel as (r & d & Hdel). exists r, d. split; [exact Hdel|].
  assert (E1 : step e c t = commit c t (c_sh c) ts (LCall t) [ECall t o]).
  { rewrite (step_idle_call e c t o rest) by (rewrite Hp; reflexivity). unfold call. rewrite Hp, Hcall. reflexivity. }
  assert (E2 : forall c', c_pool c' t = ts ->
            step e c' t = finish e c' t (with_c (c_sh c') (wadd (s_c (c_sh c')) (k_incr e q))) ts
                            (LAtom t SC AAdd (k_incr e q) (s_c (c_sh c')) (o_res q)) q (k_pull e q (s_c (c_sh c')))).
  { intros c' H. unfold step. rewrite H. destruct Hcl as [K|K]; rewrite K; reflexivity. }
  rewrite E1, E2 by apply upd_same. unfold finish. cbn [commit c_sh]. rewrite Hdel. reflexivity.
Qed.

Fixpoint pulls_sched (t0 : tid) (n : nat) : list tid :=
  match n with O => [] | S n => t0 :: t0 :: pulls_sched t0 n end.

Lemma pulls_sched_only t0 n : Forall (eq t0) (pulls_sched t0 n).
Proof. induction n; cbn [pulls_sched]; repeat constructor; assumption. Qed.

(** [n] single pulls move the counter from [v] to [v + n] *)
Lemma pulls_run e t0 : clonable e -> forall n c sh v,
  c_pool c t0 = init_ts (repeat (Next NVal) n) -> c_sh c = with_c sh v -> v + N.of_nat n < W ->
  let c' := exec e c (pulls_sched t0 n) in
  c_sh c' = with_c sh (v + N.of_nat n) /\ c_pool c' t0 = init_ts [] /\
  exists Q, c_labels c' = Q ++ c_labels c /\ nowrap Q.
Proof.
  intros Hk. induction n as [|n IH]; intros c sh v Hp Hsh Hw; cbv zeta.
  - rewrite N.add_0_r.
    split; [exact Hsh|]. split; [exact Hp|]. exists []. split; [reflexivity|constructor].
  - cbn [pulls_sched] in *. rewrite !exec_cons.
    destruct (pull_steps e c t0 (Next NVal) 1 (MSingle NVal) (repeat (Next NVal) n) Hk I Hp eq_refl) as (r & d & _ & ->).
    rewrite Hsh. cbn [with_c s_c k_incr q_mode]. rewrite (wadd_nowrap v 1) by lia.
    match goal with |- context [exec e ?c1 _] => destruct (IH c1 sh (v + 1)) as (G1 & G2 & Q & G3 & G4) end.
    + apply upd_same.
    + reflexivity.
    + lia.
    + split; [rewrite G1; f_equal; lia|]. split; [exact G2|].
      exists (Q ++ [LAtom t0 SC AAdd 1 v (o_res {| q_n := 1; q_mode := MSingle NVal; q_ctx := CTop |}); LCall t0]). rewrite G3, <- app_assoc. split; [reflexivity|].
      apply Forall_app. split; [exact G4|]. repeat constructor. cbn [label_nowrap]. lia.
Qed.

(** the program and the schedule of the extra thread *)
Definition pre_prog (e : env) (k : N) : list op :=
  Chunk (N.min k (e_len e)) 0 :: repeat (Next NVal) (N.to_nat (k - e_len e)).

Definition pre_sched (e : env) (t0 : tid) (k : N) : list tid :=
  t0 :: t0 :: pulls_sched t0 (N.to_nat (k - e_len e)).

Definition with_prog (progs : tid -> list op) (t0 : tid) (p0 : list op) : tid -> list op :=
  fun t => if Nat.eqb t t0 then p0 else progs t.

Definition sh_at (k : N) : shared := {| s_c := k; s_y := 0; s_f := false; s_cur := 0; s_calls := 0 |}.

Lemma pre_sched_only e t0 k : Forall (eq t0) (pre_sched e t0 k).
Proof. repeat constructor. apply pulls_sched_only. Qed.

Lemma pre_prog_wf e k : wf_env e -> Forall wf_op (pre_prog e k).
Proof.
  intros [Hl _]. constructor; [cbn [wf_op]; lia|].
  apply Forall_forall. intros o Ho. apply repeat_spec in Ho. subst o. exact I.
Qed.

(** a chunk pull of [m] elements at counter 0 is handed [0, m) *)
Lemma chunk_delivers e ts m ts' r d : wf_env e -> 0 < m <= e_len e ->
  let q := {| q_n := m; q_mode := MChunk 0; q_ctx := CTop |} in
  deliver e ts q (k_pull e q 0) = (ts', Some (r, d)) -> In (0, m) (res_cover e r).
Proof.
  intros He Hm q. rewrite (k_pull_spec e q 0 He) by (destruct He as [Hl _]; split; [cbn [q q_n]; lia|exact I]).
  unfold pull_spec. cbn [q q_n].
  rewrite (proj2 (N.ltb_lt 0 (e_len e))), (proj2 (N.ltb_lt 0 m)) by lia.
  intros E. injection E as _ <- _. apply in_or_app. right. left. f_equal; lia.
Qed.

Theorem prefix_run e k progs t0 :
  clonable e -> wf_env e -> k < W ->
  let c0 := exec e (init (with_prog progs t0 (pre_prog e k))) (pre_sched e t0 k) in
  c_sh c0 = sh_at k /\
  c_pool c0 t0 = init_ts [] /\
  (forall t, t <> t0 -> c_pool c0 t = init_ts (progs t)) /\
  Forall (ev_of t0) (c_trace c0) /\
  nowrap (c_labels c0) /\
  (0 < N.min k (e_len e) -> In (0, N.min k (e_len e)) (cov e (c_trace c0))).
Proof.
  intros Hk He HkW.
  set (ci := init (with_prog progs t0 (pre_prog e k))).
  destruct (solo_run e t0 _ ci (pre_sched_only e t0 k)) as ((X & HX & Hev) & Hoth). rewrite app_nil_r in HX.
  unfold pre_sched in *. set (m := N.min k (e_len e)). set (n := N.to_nat (k - e_len e)) in *.
  assert (Hp : forall t, c_pool ci t = init_ts (if Nat.eqb t t0 then Chunk m 0 :: repeat (Next NVal) n else progs t)).
  { intros t. unfold ci, init, with_prog. cbn [c_pool]. destruct (Nat.eqb t t0); reflexivity. }
  rewrite !exec_cons in *.
  destruct (pull_steps e ci t0 (Chunk m 0) m (MChunk 0) (repeat (Next NVal) n) Hk I) as (r & d & Hdel & E).
  { rewrite Hp, Nat.eqb_refl. reflexivity. }
  { unfold call_res. destruct Hk as [K|K]; rewrite K; reflexivity. }
  assert (Hw : wadd 0 (N.min m (e_len e)) = m) by (rewrite wadd_nowrap; lia).
  cbn [ci init c_sh s_c k_incr q_mode q_n] in E. rewrite Hw in E. rewrite E in *. clear E.
  match goal with |- context [exec e ?c _] => set (c1 := c) in * end.
  destruct (pulls_run e t0 Hk n c1 (sh_at 0) m) as (G1 & G2 & Q & G3 & G4).
  { apply upd_same. }
  { reflexivity. }
  { unfold n. lia. }
  destruct (exec_history e (pulls_sched t0 n) c1) as (X' & _ & H1 & _).
  split; [rewrite G1; unfold n, with_c, sh_at; rewrite N2Nat.id; cbn [s_y s_f s_cur s_calls]; f_equal; lia|].
  split; [exact G2|].
  split; [intros t Ht; rewrite (Hoth t Ht), Hp, (proj2 (Nat.eqb_neq t t0) Ht); reflexivity|].
  split; [rewrite HX; exact Hev|].
  split.
  - rewrite G3. apply Forall_app. split; [exact G4|]. repeat constructor. cbn [label_nowrap]. lia.
  - intros Hm. rewrite H1, cov_app. apply in_or_app. right.
    apply in_or_app. left. eapply chunk_delivers; [exact He| |exact Hdel]. lia.
Qed.

(** the same, in terms of the clone: the prefix run ends in the shared state of [clone_of c progs] *)
Corollary prefix_run_clone e progs t0 c :
  clonable e -> wf_env e -> s_c (c_sh c) < W ->
  let k := s_c (c_sh c) in
  let c0 := exec e (init (with_prog progs t0 (pre_prog e k))) (pre_sched e t0 k) in
  Forall (eq t0) (pre_sched e t0 k) /\
  c_sh c0 = c_sh (clone_of c progs) /\
  c_pool c0 t0 = init_ts [] /\
  (forall t, t <> t0 -> c_pool c0 t = c_pool (clone_of c progs) t).
Proof.
  intros Hcl He Hk.
  destruct (prefix_run e (s_c (c_sh c)) progs t0 Hcl He Hk) as (P1 & P2 & P3 & _).
  split; [apply pre_sched_only|]. split; [exact P1|]. split; [exact P2|exact P3].
Qed.

Lemma split_call_app t X Y :
  split_call t (X ++ Y) =
  match split_call t X with Some (o, older) => Some (o, older ++ Y) | None => split_call t Y end.
Proof.
  induction X as [|ev X IH]; cbn [app split_call]; [reflexivity|].
  destruct ev as [u o|u r d|f r d]; try exact IH. destruct (Nat.eqb u t); [reflexivity|exact IH].
Qed.

(** an end report remains one when older events are put under the trace *)
Lemma end_reported_app X Y : end_reported X = true -> end_reported (X ++ Y) = true.
Proof.
  induction X as [|ev X IH]; cbn [app end_reported]; [discriminate|].
  destruct ev as [u o|u r d|f r d]; try exact IH.
  rewrite split_call_app, !orb_true_iff. intros [H|H]; [left|right; apply IH; exact H].
  destruct (split_call u X) as [[o older]|]; [exact H|]. rewrite andb_false_r in H. discriminate H.
Qed.

Lemma split_call_others t t0 T0 : Forall (ev_of t0) T0 -> t <> t0 -> split_call t T0 = None.
Proof.
  intros H Hn. induction H as [|ev tl Hev _ IH]; [reflexivity|].
  destruct ev as [u o|u r d|f r d]; cbn [ev_of] in Hev; cbn [split_call]; try exact IH.
  subst u. destruct (Nat.eqb_spec t0 t); [congruence|exact IH].
Qed.

Definition by_threads (s : list tid) (X : list event) : Prop :=
  Forall (fun ev => exists t, In t s /\ ev_of t ev) X.

Section Transport.

Variable t0 : tid.
Variable T0 : list event.
Hypothesis HT0 : Forall (ev_of t0) T0.
Variable s : list tid.
Hypothesis Hs : ~ In t0 s.

Lemma buf_size_app t X : t <> t0 -> buf_size t (X ++ T0) = buf_size t X.
Proof.
  intros Hn. induction X as [|ev X IH]; cbn [app buf_size].
  - rewrite <- (app_nil_r T0). apply (buf_size_others t0 t T0 [] Hn HT0).
  - destruct ev as [u o|u r d|f r d]; try exact IH. destruct o; try exact IH.
    destruct (Nat.eqb u t && negb (c =? 0)); [reflexivity|exact IH].
Qed.

Lemma all_rets_transport (P : tid -> res -> list drops -> list event -> bool) :
  (forall t r d tl, t <> t0 -> P t r d (tl ++ T0) = true -> P t r d tl = true) ->
  forall X, by_threads s X -> all_rets P (X ++ T0) = true -> all_rets P X = true.
Proof.
  intros Himp X HX. induction HX as [|ev X (t & Ht & Hev) _ IH]; [reflexivity|]. cbn [app].
  destruct ev as [u o|u r d|f r d]; cbn [all_rets]; try exact IH.
  rewrite !andb_true_iff. intros [H1 H2]. split; [|exact (IH H2)].
  apply Himp; [|exact H1]. cbn [ev_of] in Hev. subst u. intros ->. contradiction.
Qed.

Variable e : env.

Lemma transport_C02 X : by_threads s X -> chk_C02 e (X ++ T0) = true -> chk_C02 e X = true.
Proof. apply all_rets_transport. intros t r d tl _ H. exact H. Qed.

Lemma transport_C03 X : by_threads s X -> chk_C03 e (X ++ T0) = true -> chk_C03 e X = true.
Proof.
  apply all_rets_transport. intros t r d tl Hn. unfold ev_C03. rewrite split_call_app, (split_call_others t t0 T0 HT0 Hn).
  destruct (split_call t tl) as [[o older]|]; [|intros H; exact H].
  destruct o; try (intros H; exact H). rewrite (buf_size_app t older Hn). intros H; exact H.
Qed.

Lemma transport_C05 X : by_threads s X -> chk_C05 e (X ++ T0) = true -> chk_C05 e X = true.
Proof.
  apply all_rets_transport. intros t r d tl Hn. unfold ev_C05. rewrite split_call_app, (split_call_others t t0 T0 HT0 Hn).
  destruct (split_call t tl) as [[o older]|]; [|intros H; exact H].
  destruct (end_reported older) eqn:Ee; [|reflexivity].
  rewrite (end_reported_app older T0 Ee). intros H; exact H.
Qed.

Lemma transport_nodup X : chk_C01_nodup e (X ++ T0) = true -> chk_C01_nodup e X = true.
Proof.
  unfold chk_C01_nodup. rewrite cov_app, pairwise_disj_app, iv_within_app. intros H.
  apply andb_true_iff in H. destruct H as [H Hw]. apply andb_true_iff in Hw. destruct Hw as [-> _].
  apply andb_true_iff in H. destruct H as [H _]. apply andb_true_iff in H. destruct H as [-> _]. reflexivity.
Qed.

(** what the prefix thread was handed lies below everything the clone delivers *)
Lemma transport_floor X m : 0 < m -> In (0, m) (cov e T0) -> chk_C01_nodup e (X ++ T0) = true ->
  forall lo cnt, In (lo, cnt) (cov e X) -> 0 < cnt -> m <= lo.
Proof.
  unfold chk_C01_nodup. rewrite cov_app, pairwise_disj_app. intros Hm Hin H lo cnt Hx Hc.
  apply andb_true_iff in H. destruct H as [H _]. apply andb_true_iff in H. destruct H as [_ H].
  rewrite forallb_forall in H. specialize (H _ Hx). rewrite disj_from_forall in H. specialize (H _ Hin).
  unfold iv_disj, iv_hi in H. cbn [fst snd] in H.
  destruct (N.eqb_spec cnt 0); [lia|]. destruct (N.eqb_spec m 0); [lia|].
  apply orb_true_iff in H. destruct H as [H|H]; apply N.leb_le in H; lia.
Qed.

End Transport.

(** * the theorem: the single-iterator properties for a clone, which starts at the counter [k] of its original *)

Lemma fresh_tid (s : list tid) : ~ In (S (list_max s)) s.
Proof.
  intros H. assert (Forall (fun x => (x <= list_max s)%nat) s) as F by (apply list_max_le; lia).
  rewrite Forall_forall in F. specialize (F _ H). lia.
Qed.

(** the combined run: the extra thread [t0] first brings a fresh iterator to the counter [k], then the
    clone's schedule runs; the trace of the combined run is the clone's trace on top of [t0]'s events *)
Lemma clone_combined e k progs s c t0 :
  clonable e -> wf_env e -> k < W -> s_c (c_sh c) = k -> ~ In t0 s ->
  let progs0 := with_prog progs t0 (pre_prog e k) in
  let s0 := pre_sched e t0 k in
  exists T0 L0,
    c_trace (exec e (init progs0) (s0 ++ s)) = c_trace (exec e (clone_of c progs) s) ++ T0 /\
    c_labels (exec e (init progs0) (s0 ++ s)) = c_labels (exec e (clone_of c progs) s) ++ L0 /\
    Forall (ev_of t0) T0 /\ nowrap L0 /\ by_threads s (c_trace (exec e (clone_of c progs) s)) /\
    (0 < N.min k (e_len e) -> In (0, N.min k (e_len e)) (cov e T0)).
Proof.
  intros Hcl He HkW Hc Hfresh. cbv zeta. rewrite exec_app.
  destruct (prefix_run e k progs t0 Hcl He HkW) as (P1 & P2 & P3 & P4 & P5 & P6).
  set (c0 := exec e (init (with_prog progs t0 (pre_prog e k))) (pre_sched e t0 k)) in *.
  destruct (exec_frame e s c0 (clone_of c progs)) as (X & Y & H1 & H2 & H3 & H4 & _ & _ & H7).
  - rewrite P1, <- Hc. reflexivity.
  - intros t Ht. apply P3. intros ->. contradiction.
  - rewrite app_nil_r in H2, H4.
    exists (c_trace c0), (c_labels c0). rewrite H2, H4. repeat split; assumption.
Qed.

Theorem clone_properties e k progs s c :
  known_env e -> clonable e -> k < W -> wf_progs progs ->
  s_c (c_sh c) = k ->
  nowrap (c_labels (exec e (clone_of c progs) s)) ->
  let tr := c_trace (exec e (clone_of c progs) s) in
  chk_C01_nodup e tr = true /\
  (forall lo cnt, In (lo, cnt) (cov e tr) -> 0 < cnt -> N.min k (e_len e) <= lo) /\
  chk_C02 e tr = true /\
  chk_C03 e tr = true /\
  chk_C05 e tr = true.
Proof.
  intros Hke Hcl HkW Hp Hc Hnw.
  pose proof Hke as (He & _ & _).
  set (t0 := S (list_max s)).
  destruct (clone_combined e k progs s c t0 Hcl He HkW Hc (fresh_tid s)) as (T0 & L0 & Etr & Elb & HT0 & HL0 & HX & Hin).
  set (progs0 := with_prog progs t0 (pre_prog e k)) in *.
  set (sched := pre_sched e t0 k ++ s) in *.
  assert (Hp0 : wf_progs progs0).
  { intros t. unfold progs0, with_prog. destruct (Nat.eqb t t0); [apply pre_prog_wf; exact He|apply Hp]. }
  assert (Hnw0 : nowrap (c_labels (exec e (init progs0) sched))).
  { rewrite Elb. apply Forall_app. split; assumption. }
  pose proof (known_nodup e Hke progs0 Hp0 sched Hnw0) as K1.
  pose proof (known_C02 e Hke progs0 Hp0 sched Hnw0) as K2.
  pose proof (known_C03 e Hke progs0 Hp0 sched Hnw0) as K3.
  pose proof (known_C05 e Hke progs0 Hp0 sched Hnw0) as K5.
  rewrite Etr in K1, K2, K3, K5.
  split; [exact (transport_nodup T0 e _ K1)|].
  split.
  { intros lo cnt Hx Hcnt. destruct (N.eq_dec (N.min k (e_len e)) 0) as [E|E]; [lia|].
    eapply (transport_floor T0 e); [| |exact K1|exact Hx|exact Hcnt]; [lia|apply Hin; lia]. }
  split; [exact (transport_C02 t0 T0 s (fresh_tid s) e _ HX K2)|].
  split; [exact (transport_C03 t0 T0 HT0 s (fresh_tid s) e _ HX K3)|].
  exact (transport_C05 t0 T0 HT0 s (fresh_tid s) e _ HX K5).
Qed.

(** non-vacuity: a clone of a slice of 5 elements taken at counter 2 (inside), and at counter 7 (beyond
    the end: the original was pulled from after its end) *)
Example clone_properties_apply :
  let e := {| e_kind := KSlice; e_adaptor := ANone; e_len := 5; e_start := 0; e_end := 0; e_hint := HExact;
              e_owning := false; e_mode := Checked; e_crash := None; e_gap := fun _ => false |} in
  let progs := fun t => match t with 0%nat => [Next NIdVal; Chunk 2 1] | 1%nat => [Chunk 4 4; Next NVal] | _ => [] end in
  let s := [0; 1; 0; 1; 0; 0; 1; 1]%nat in
  let c2 := exec e (init (fun _ => [Chunk 2 2])) [0; 0]%nat in
  let c7 := exec e (init (fun _ => [Chunk 5 0; Next NVal; Next NVal])) [0; 0; 0; 0; 0; 0]%nat in
  (s_c (c_sh c2) = 2 /\ cov e (c_trace (exec e (clone_of c2 progs) s)) = [(3, 2); (5, 0); (2, 1)]
   /\ chk_C05 e (c_trace (exec e (clone_of c2 progs) s)) = true) /\
  (s_c (c_sh c7) = 7 /\ cov e (c_trace (exec e (clone_of c7 progs) s)) = []
   /\ chk_C05 e (c_trace (exec e (clone_of c7 progs) s)) = true).
Proof.
  intros e progs s c2 c7.
  assert (Hke : known_env e) by (repeat split; cbn; rewrite ?W_val; lia).
  assert (Hp : wf_progs progs) by (intros [|[|t]]; repeat constructor; cbn [wf_op]; rewrite W_val; lia).
  (* the last conjunct of each half is an instance of the theorem: its hypotheses hold of these runs *)
  assert (H : forall c, s_c (c_sh c) < W -> nowrap (c_labels (exec e (clone_of c progs) s)) ->
                        chk_C05 e (c_trace (exec e (clone_of c progs) s)) = true).
  { intros c Hc Hnw. apply (clone_properties e _ progs s c Hke (or_introl eq_refl) Hc Hp eq_refl Hnw). }
  split; (split; [reflexivity|]; split; [vm_compute; reflexivity|]; apply H; [reflexivity|]);
    (remember (c_labels _) as ls eqn:E; vm_compute in E; subst ls; repeat constructor).
Qed.

Print Assumptions step_frame.
Print Assumptions exec_frame.
Print Assumptions prefix_run.
Print Assumptions clone_properties.
