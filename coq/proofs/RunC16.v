(** * C16 / C17 at the level of whole runs, first for the known-size kinds, then for the wrapper over an
      arbitrary iterator: no operation panics except the documented
      panics for a chunk size of zero, a one-shot chunk pull of size zero reports the end, and the end
      of life never panics -- for every length and range up to 2^64 - 1, in both overflow modes. *)
From Coq Require Import Lia ZArith.
From OCI Require Import Machine Checkers.
From OCI.proofs Require Import Base Trace ArithOk InvKnown ChkKnown IterBase IterProt InvIterA ChkIter.
Open Scope N_scope.

(** a program in which no closure is told to panic *)
Definition op_plain (o : op) : Prop := match o with Loop _ _ (Some _) => False | _ => True end.

(** a program that pulls from its buffered iterator only while it has one ([has]: it has one now) *)
Fixpoint buf_disc (has : bool) (prog : list op) : bool :=
  match prog with
  | [] => true
  | BufNew c :: tl => buf_disc (if c =? 0 then has else true) tl
  | BufNext _ :: tl => has && buf_disc has tl
  | BufDrop :: tl => buf_disc false tl
  | _ :: tl => buf_disc has tl
  end.

(** C17: when no operation asks for a chunk size of zero, nothing panics at all -- and since the model's
    results do not depend on the overflow mode (c17_pull_same_in_both_modes), in both build modes *)
Definition op_nz (o : op) : Prop :=
  match o with BufNew c => c <> 0 | Loop _ c _ => c <> 0 | _ => True end.

Definition plain_progs (progs : tid -> list op) : Prop :=
  forall t, Forall op_plain (progs t) /\ buf_disc false (progs t) = true.

Definition has_buf (b : option bufst) : bool := match b with Some _ => true | None => false end.

Lemma split_call_in t tr o older : split_call t tr = Some (o, older) -> In (ECall t o) tr.
Proof.
  induction tr as [|ev tr IH]; cbn [split_call]; [discriminate|].
  destruct ev as [u o'|u r d|f r d]; try (intros H; right; apply IH; exact H).
  destruct (Nat.eqb_spec u t) as [->|_]; intros H; [injection H as <- _; left; reflexivity|right; apply IH; exact H].
Qed.

(** the call point, for a program that respects [buf_disc]: an operation that returns at once returns
    what C16 asks of it, and the rest of the program respects [buf_disc] *)
Lemma call_C16 e ts o rest : buf_disc (has_buf (t_buf ts)) (o :: rest) = true ->
  match call_res e ts o with
  | CGo _ => buf_disc (has_buf (t_buf ts)) rest = true
  | CRet bf r _ => buf_disc (has_buf bf) rest = true /\ forall t d tr, ev_C16 t r d (ECall t o :: tr) = true
  end.
Proof.
  unfold call_res, ev_C16. cbn [split_call buf_disc]. intros H.
  destruct o as [v|n k|c|k| |l c cr| | |]; try exact H.
  - destruct (e_kind e); try exact H. destruct (n =? 0) eqn:E0; [|exact H].
    split; [exact H|]. intros t d tr. rewrite Nat.eqb_refl, E0. reflexivity.
  - destruct (c =? 0) eqn:E0; (split; [exact H|]); intros t d tr; rewrite Nat.eqb_refl, E0; reflexivity.
  - destruct (t_buf ts); [exact H|discriminate H].
  - split; [exact H|]. intros t d tr. rewrite Nat.eqb_refl. reflexivity.
  - destruct (c =? 0) eqn:E0; [|destruct (c =? 1); exact H].
    split; [exact H|]. intros t d tr. rewrite Nat.eqb_refl, E0. reflexivity.
Qed.

(** the return of an operation that went through the call point: any result that is not a panic will do,
    except that a chunk pull of size zero must report the end *)
Lemma ev_go e ts o p t r d tr older :
  call_res e ts o = CGo p -> pend_call t tr = Some (o, older) -> is_panic r = false ->
  (forall q, p = PRes q -> q_n q = 0 -> q_ctx q = CTop -> r = RNone) -> ev_C16 t r d tr = true.
Proof.
  intros Hc Hp Hr H0. unfold ev_C16. rewrite (pend_split _ _ _ Hp). unfold call_res in Hc.
  destruct o as [v|n k|c|k| |l c cr| | |]; try (rewrite Hr; reflexivity).
  - destruct (N.eqb_spec n 0) as [->|_]; [|rewrite Hr; reflexivity].
    destruct (e_kind e); try discriminate Hc; injection Hc as <-; rewrite (H0 _ eq_refl eq_refl eq_refl); reflexivity.
  - destruct (c =? 0); discriminate Hc.
  - destruct (c =? 0); [discriminate Hc|]. rewrite Hr. reflexivity.
Qed.

(** the closure of a loop that is being served is not told to panic *)
Lemma loop_plain e ts o q l k : call_res e ts o = CGo (PRes q) -> op_plain o -> q_ctx q <> CLoop l (Some k).
Proof.
  unfold call_res. intros Hc Hp Hq. destruct o as [v|n k'|c|k'| |l' c cr| | |]; try discriminate Hc.
  - injection Hc as <-. discriminate Hq.
  - destruct (e_kind e), (n =? 0); try discriminate Hc; injection Hc as <-; discriminate Hq.
  - destruct (c =? 0); discriminate Hc.
  - destruct (t_buf ts); [|discriminate Hc]. injection Hc as <-. discriminate Hq.
  - destruct cr; [contradiction Hp|]. destruct (c =? 0); [discriminate Hc|].
    destruct (c =? 1); injection Hc as <-; discriminate Hq.
Qed.

(** the end of a pull that did not panic, for a loop whose closure is not told to panic: program and
    buffered iterator stay; if the operation returns, it does not return a panic *)
Lemma deliver_plain e ts q pr :
  (forall k, pr <> Panic k) -> (forall l k, q_ctx q <> CLoop l (Some k)) ->
  let (ts', ro) := deliver e ts q pr in
  t_todo ts' = t_todo ts /\ has_buf (t_buf ts') = has_buf (t_buf ts) /\
  match ro with
  | Some (r, _) => is_panic r = false /\ (pr = Ok PREnd -> q_ctx q = CTop -> r = RNone)
  | None => True
  end.
Proof.
  unfold deliver. intros Hpr Hcr.
  destruct pr as [[|b rs cnt]|k]; [| |contradiction (Hpr k); reflexivity].
  - destruct (q_ctx q); repeat split; discriminate.
  - destruct (q_ctx q) as [|l [k|]]; [| contradiction (Hcr l k); reflexivity |].
    + unfold deliver_top. destruct (q_mode q) as [v|k|k].
      * repeat split; [|discriminate]. destruct (if reports_idx v then rs else map strip_idx rs); reflexivity.
      * repeat split; discriminate.
      * destruct (e_kind e); try (repeat split; discriminate).
        destruct (t_buf ts) as [bf|] eqn:Eb; [|cbn [set_pc t_buf]; rewrite Eb; repeat split; discriminate].
        destruct (write_slots (bf_slots bf) (runs_vals rs)). repeat split; discriminate.
    + repeat split.
Qed.

Section Inv.

(** [ok]: what is known of every operation of the programs (it includes that no closure is told to panic);
    the invariant hands it on to every call in the trace, which is where C17 finds the chunk sizes *)
Variable ok : op -> Prop.
Hypothesis ok_plain : forall o, ok o -> op_plain o.

Record Plain (c : cfg) : Prop := {
  q_evs    : all_rets ev_C16 (c_trace c) = true;
  q_fin    : finals_no_panic (c_trace c) = true;
  q_todo   : forall t, Forall ok (t_todo (c_pool c t));
  q_buf    : forall t, buf_disc (has_buf (t_buf (c_pool c t))) (t_todo (c_pool c t)) = true;
  q_called : forall u o, In (ECall u o) (c_trace c) -> ok o
}.

Lemma q_init progs : (forall t, Forall ok (progs t)) -> (forall t, buf_disc false (progs t) = true) -> Plain (init progs).
Proof. intros Hok Hbd. split; cbn [init c_trace c_pool init_ts t_todo t_buf has_buf]; try assumption; try reflexivity. intros u o []. Qed.

Lemma q_commit c t sh ts' l evs :
  Plain c ->
  all_rets ev_C16 (evs ++ c_trace c) = true ->
  finals_no_panic (evs ++ c_trace c) = true ->
  Forall ok (t_todo ts') ->
  buf_disc (has_buf (t_buf ts')) (t_todo ts') = true ->
  (forall u o, In (ECall u o) evs -> ok o) ->
  Plain (commit c t sh ts' l evs).
Proof.
  intros I H1 H2 H3 H4 H5. split; cbn [commit c_trace c_pool]; try assumption.
  - intros u. destruct (Nat.eq_dec u t) as [->|Hn]; [rewrite upd_same; exact H3|rewrite upd_other by assumption; apply (q_todo c I)].
  - intros u. destruct (Nat.eq_dec u t) as [->|Hn]; [rewrite upd_same; exact H4|rewrite upd_other by assumption; apply (q_buf c I)].
  - intros u o H. apply in_app_or in H. destruct H as [H|H]; [apply (H5 u o H)|apply (q_called c I u o H)].
Qed.

Lemma q_call e c t o rest : Plain c -> t_todo (c_pool c t) = o :: rest -> Plain (call e c t (c_pool c t) o rest).
Proof.
  intros I Htodo. pose proof (q_todo c I t) as Hok. pose proof (q_buf c I t) as Hbd. rewrite Htodo in Hok, Hbd.
  inversion Hok as [|? ? Ho Hrest]; subst. apply (call_C16 e) in Hbd. unfold call.
  destruct (call_res e (c_pool c t) o) as [p|bf r d].
  - apply q_commit; cbn [app all_rets finals_no_panic t_todo t_buf]; try assumption; [apply (q_evs c I)|apply (q_fin c I)|].
    intros u o' [E|[]]. injection E as _ <-. exact Ho.
  - destruct Hbd as [Hbd Hev].
    apply q_commit; cbn [app all_rets finals_no_panic t_todo t_buf]; try assumption; [rewrite Hev; apply (q_evs c I)|apply (q_fin c I)|].
    intros u o' [E|[E|[]]]; [discriminate E|]. injection E as _ <-. exact Ho.
Qed.

(** a step of a thread inside an operation: its program and its buffered iterator stay, and the
    operation may return *)
Lemma q_local c t sh ts' l ro :
  Plain c -> t_todo ts' = t_todo (c_pool c t) -> has_buf (t_buf ts') = has_buf (t_buf (c_pool c t)) ->
  match ro with Some (r, d) => ev_C16 t r d (c_trace c) = true | None => True end ->
  Plain (commit c t sh ts' l (ret_ev t ro)).
Proof.
  intros I Ht Hb Hev. apply q_commit; try exact I.
  - destruct ro as [[r d]|]; cbn [ret_ev app all_rets]; [rewrite Hev|]; apply (q_evs c I).
  - destruct ro as [[r d]|]; apply (q_fin c I).
  - rewrite Ht. apply (q_todo c I).
  - rewrite Ht, Hb. apply (q_buf c I).
  - intros u o H. destruct ro as [[r d]|]; [destruct H as [H|[]]; discriminate H|destruct H].
Qed.

(** the return of [skip_to_end] or of a length query *)
Lemma q_ret e c t sh l r d o older p :
  Plain c -> pend_call t (c_trace c) = Some (o, older) -> call_res e (c_pool c t) o = CGo p ->
  (forall q, p <> PRes q) -> is_panic r = false ->
  Plain (commit c t sh (set_pc (c_pool c t) PIdle) l [ERet t r d]).
Proof.
  intros I Hp Hc Hnq Hr. apply (q_local c t sh _ l (Some (r, d)) I); try reflexivity.
  apply (ev_go e _ _ _ _ _ _ _ _ Hc Hp Hr). intros q ->. contradiction (Hnq q). reflexivity.
Qed.

(** the end of a pull that did not panic; when nothing was asked for, it reported the end *)
Lemma q_finish e c t sh l q pr o older :
  Plain c -> pend_call t (c_trace c) = Some (o, older) -> call_res e (c_pool c t) o = CGo (PRes q) ->
  (forall k, pr <> Panic k) -> (q_n q = 0 -> pr = Ok PREnd) ->
  Plain (finish e c t sh (c_pool c t) l q pr).
Proof.
  intros I Hp Hc Hpr H0. unfold finish.
  pose proof (deliver_plain e (c_pool c t) q pr Hpr) as D. destruct (deliver e (c_pool c t) q pr) as [ts' ro].
  destruct D as (Ht & Hb & Hr).
  { intros l' k. apply (loop_plain e _ _ _ _ _ Hc), ok_plain, (q_called c I t), split_call_in with older, pend_split, Hp. }
  apply q_local; try assumption. destruct ro as [[r d]|]; [|exact Logic.I]. destruct Hr as [Hr Hend].
  apply (ev_go e _ _ _ _ _ _ _ _ Hc Hp Hr). intros q' [= <-] Hn. apply Hend, H0, Hn.
Qed.

Section Known.

Variable e : env.
Hypothesis He : wf_env e.
Hypothesis Hk : is_known (e_kind e) = true.
Hypothesis Hown : e_owning e = match e_kind e with KVec | KArray => true | _ => false end.
Variable L : list tid.

Lemma q_step c t : KInv e L c -> Plain c -> Plain (step e c t).
Proof.
  intros K I.
  destruct (k_wf _ _ _ K t) as (Hok & _). pose proof (k_call _ _ _ K t) as Hc. unfold kpc_ok in Hok. unfold call_ok, is_idle in Hc.
  destruct (t_pc (c_pool c t)) as [|q|q b|q b|q b|q b got|q b got|q b got|q b got| |hm|hm] eqn:Hpc; try contradiction.
  - destruct (t_todo (c_pool c t)) as [|o rest] eqn:Htodo.
    + rewrite step_idle_nil by assumption. exact I.
    + rewrite step_idle_call with (o := o) (rest := rest) by assumption. apply q_call; assumption.
  - (* a pull is one step; the arithmetic of the kind does not panic *)
    destruct Hc as (o & older & Hp & Hcr).
    rewrite step_res with (q := q) by assumption. rewrite k_pull_spec by (assumption || apply Hok).
    apply (q_finish e c t _ _ q _ o older I Hp Hcr); [discriminate|].
    intros Hn. rewrite Hn. unfold pull_spec. rewrite andb_false_r. reflexivity.
  - destruct Hc as (o & older & Hp & Hcr).
    assert (Hg : forall sh l d, Plain (commit c t sh (set_pc (c_pool c t) PIdle) l [ERet t RUnit d])).
    { intros sh l d. apply (q_ret e c t sh l RUnit d o older PSkip I Hp Hcr); [discriminate|reflexivity]. }
    rewrite step_skip by assumption. destruct (e_owning e); apply Hg.
  - destruct Hc as (o & older & Hp & Hcr).
    assert (Hg : forall l v, Plain (commit c t (c_sh c) (set_pc (c_pool c t) PIdle) l [ERet t (len_res hm v) []])).
    { intros l v. apply (q_ret e c t _ l _ [] o older (PLen hm) I Hp Hcr); [discriminate|]. destruct hm; reflexivity. }
    rewrite step_len with (hm := hm) by assumption. apply Hg.
Qed.

End Known.

End Inv.

Lemma plain_C16 e c : Plain op_plain c -> chk_C16 e (c_trace c) = true.
Proof. intros I. unfold chk_C16. rewrite (q_evs _ _ I), (q_fin _ _ I). reflexivity. Qed.

(** where every operation that was called has a chunk size other than zero, C16 leaves no panic *)
Lemma no_panic_from_C16 tr :
  all_rets ev_C16 tr = true -> finals_no_panic tr = true ->
  (forall u o, In (ECall u o) tr -> op_nz o) -> has_panic tr = false.
Proof.
  induction tr as [|ev tr IH]; intros H Hf Hc; [reflexivity|].
  assert (Hc' : forall u o, In (ECall u o) tr -> op_nz o) by (intros u o Hin; apply (Hc u o); right; exact Hin).
  destruct ev as [u o|u r d|f r d]; cbn [all_rets has_panic finals_no_panic] in *.
  - apply IH; assumption.
  - apply andb_true_iff in H. destruct H as [H1 H2]. rewrite (IH H2 Hf Hc'), orb_false_r.
    unfold ev_C16 in H1. destruct (split_call u tr) as [[o older]|] eqn:Es; [|discriminate].
    pose proof (Hc' u o (split_call_in _ _ _ _ Es)) as Hnz.
    destruct o; try (apply negb_true_iff in H1; exact H1).
    + destruct (n =? 0); [destruct r; try discriminate H1; reflexivity|apply negb_true_iff in H1; exact H1].
    + destruct (N.eqb_spec c 0); [contradiction|apply negb_true_iff in H1; exact H1].
    + destruct (N.eqb_spec c 0); [contradiction|apply negb_true_iff in H1; exact H1].
  - apply andb_true_iff in Hf. destruct Hf as [Hf1 Hf2]. apply negb_true_iff in Hf1. rewrite Hf1. apply IH; assumption.
Qed.

Lemma plain_C17 c : Plain (fun o => op_plain o /\ op_nz o) c -> chk_no_panic (c_trace c) = true.
Proof.
  intros I. unfold chk_no_panic. rewrite (no_panic_from_C16 _ (q_evs _ _ I) (q_fin _ _ I)); [reflexivity|].
  intros u o Hin. apply (q_called _ _ I u o Hin).
Qed.

Lemma plain_nz progs : plain_progs progs -> (forall t, Forall op_nz (progs t)) ->
  forall t, Forall (fun o => op_plain o /\ op_nz o) (progs t).
Proof. intros Hpl Hnz t. apply Forall_and; [apply Hpl|apply Hnz]. Qed.

Lemma q_exec (ok : op -> Prop) : (forall o, ok o -> op_plain o) ->
  forall e, known_env e -> forall progs, wf_progs progs -> plain_progs progs -> (forall t, Forall ok (progs t)) ->
  forall sched, nowrap (c_labels (exec e (init progs) sched)) -> Plain ok (exec e (init progs) sched).
Proof.
  intros Hok e Hke progs Hp Hpl Hoks sched.
  induction sched as [|t sched IH] using rev_ind; intros Hw; [apply q_init; [exact Hoks|apply Hpl]|].
  rewrite exec_snoc in *. pose proof (step_labels_suffix e _ _ Hw) as Hw1. pose proof Hke as (He & Hk & Hown).
  apply q_step with (L := nodup Nat.eq_dec sched); first [assumption|apply known_inv; assumption|apply IH; exact Hw1].
Qed.

(** C16 on every run of a known-size kind whose closures do not panic: nothing panics except
    [buffered_iter(0)] and the loops with chunk size zero, which must; [next_chunk(0)] reports the end *)
Theorem known_C16_run : forall e, known_env e -> forall progs, wf_progs progs -> plain_progs progs -> forall sched,
  nowrap (c_labels (exec e (init progs) sched)) ->
  chk_C16 e (c_trace (exec e (init progs) sched)) = true.
Proof. intros e He progs Hp Hpl sched Hw. apply plain_C16, q_exec; try assumption; [auto|apply Hpl]. Qed.

Theorem known_C16_final : forall e, known_env e -> forall progs, wf_progs progs -> plain_progs progs -> forall sched,
  nowrap (c_labels (exec e (init progs) sched)) -> forall t f,
  chk_C16 e (c_trace (final_step e (exec e (init progs) sched) t f)) = true.
Proof.
  intros e He progs Hp Hpl sched Hw t f. pose proof (known_C16_run e He progs Hp Hpl sched Hw) as H.
  destruct (final_no_panic e (exec e (init progs) sched) t f (proj1 He)) as (r & d & -> & Hnp).
  unfold chk_C16 in *. cbn [all_rets finals_no_panic]. rewrite Hnp. exact H.
Qed.

Theorem known_C17_no_panic : forall e, known_env e -> forall progs, wf_progs progs -> plain_progs progs ->
  (forall t, Forall op_nz (progs t)) -> forall sched,
  nowrap (c_labels (exec e (init progs) sched)) ->
  chk_no_panic (c_trace (exec e (init progs) sched)) = true.
Proof.
  intros e He progs Hp Hpl Hnz sched Hw. apply plain_C17, q_exec; try assumption; [tauto|apply plain_nz; assumption].
Qed.

(** * The same for the wrapper over an arbitrary iterator: when neither the wrapped iterator nor a closure is
      told to panic, no operation panics except [buffered_iter(0)] and the loops with chunk size zero, which
      must; [next_chunk(0)] reports the end. *)

Section IterRun.

Variable ok : op -> Prop.
Hypothesis ok_plain : forall o, ok o -> op_plain o.
Variable e : env.
Hypothesis Hk : e_kind e = KIter.
Hypothesis Hnc : e_crash e = None.
Variable L : list tid.

(** [SInv] (Trace.v): a thread unwinds from a panic of the wrapped iterator only where the iterator was told
    to panic *)
Lemma qi_step c t : IInvA e L c -> SInv e c -> Plain ok c -> Plain ok (step e c t).
Proof.
  intros A [S _] I. specialize (S t).
  destruct (a_wf _ _ _ A t) as (Hok & _). unfold ipc_ok in Hok.
  pose proof (a_call _ _ _ A t) as Hc. unfold icall_ok in Hc.
  assert (Hsil : forall sh p l, Plain ok (commit c t sh (set_pc (c_pool c t) p) l []))
    by (intros sh p l; apply (q_local ok c t sh _ l None I); reflexivity).
  destruct (is_idle (c_pool c t)) eqn:Hi; unfold is_idle in Hi.
  { destruct (t_pc (c_pool c t)) eqn:Hpc; try discriminate Hi.
    destruct (t_todo (c_pool c t)) as [|o rest] eqn:Htodo.
    - rewrite step_idle_nil by assumption. exact I.
    - rewrite step_idle_call with (o := o) (rest := rest) by assumption. apply q_call; assumption. }
  destruct Hc as (o & older & Hp & Hcr).
  (* the end of a pull that did not panic; a request asks for one element at least *)
  assert (Hfin : forall sh l q pr, call_res e (c_pool c t) o = CGo (PRes q) -> 1 <= q_n q -> (forall k, pr <> Panic k) ->
                 Plain ok (finish e c t sh (c_pool c t) l q pr))
    by (intros sh l q pr Hcr' H1 Hpr; apply (q_finish ok ok_plain e c t sh l q pr o older I Hp Hcr' Hpr); lia).
  (* the return of [skip_to_end] or of a length query *)
  assert (Hret : forall sh l r, (forall q, entry_of (t_pc (c_pool c t)) <> PRes q) -> is_panic r = false ->
                 Plain ok (commit c t sh (set_pc (c_pool c t) PIdle) l [ERet t r []]))
    by (intros sh l r Hp' Hr; apply (q_ret ok e c t sh l r [] o older _ I Hp Hcr Hp' Hr)).
  assert (Hlen : forall hm v, is_panic (len_res hm v) = false) by (intros [|] v; reflexivity).
  unfold step, crashes_now. rewrite Hk, Hnc.
  destruct (t_pc (c_pool c t)) as [|q|q b|q b|q b|q b got|q b got|q b got|q b got| |hm|hm] eqn:Hpc; [discriminate Hi|..].
  - apply Hsil.
  - destruct (s_f (c_sh c)); [apply Hfin; [exact Hcr|apply Hok|discriminate]|apply Hsil].
  - destruct (b =? s_y (c_sh c)); [apply Hsil|].
    destruct (b <? s_y (c_sh c)); [apply Hfin; [exact Hcr|apply Hok|discriminate]|apply Hsil].
  - destruct (s_f (c_sh c)); [apply Hfin; [exact Hcr|apply Hok|discriminate]|apply Hsil].
  - destruct (q_mode q); destruct (src_next e (c_sh c)) as [xv|]; try destruct (_ =? q_n q); apply Hsil.
  - destruct (q_mode q); [apply Hfin; [exact Hcr|apply Hok|discriminate]|apply Hsil..].
  - (* the thread that publishes is the one whose turn it is: the counter it adds to is its ticket *)
    assert (Tt : ticket (pcs_of c t) = Some (b, pub_incr q)) by (unfold pcs_of; rewrite Hpc; reflexivity).
    assert (Ct : in_crit (pcs_of c t) = true) by (unfold pcs_of; rewrite Hpc; reflexivity).
    rewrite <- (p_crit _ _ _ _ _ (a_prot _ _ _ A) t _ _ Ct Tt), N.eqb_refl.
    destruct (q_mode q); [|destruct (rev got)..]; (apply Hfin; [exact Hcr|apply Hok|discriminate]).
  - cbn [pc_src_ok] in S. unfold src_may_panic in S. rewrite Hk, Hnc in S. discriminate S.
  - apply Hret; [discriminate|reflexivity].
  - destruct (s_f (c_sh c)); [|destruct (e_hint e); [apply Hsil|..]]; (apply Hret; [discriminate|apply Hlen]).
  - apply Hret; [discriminate|apply Hlen].
Qed.

End IterRun.

Lemma qi_exec (ok : op -> Prop) : (forall o, ok o -> op_plain o) ->
  forall e, iter_env e -> e_crash e = None -> forall progs, wf_progs progs -> plain_progs progs ->
  (forall t, Forall ok (progs t)) -> forall sched,
  nowrap (c_labels (exec e (init progs) sched)) -> Plain ok (exec e (init progs) sched).
Proof.
  intros Hok e Hie Hnc progs Hp Hpl Hoks sched.
  induction sched as [|t sched IH] using rev_ind; intros Hw; [apply q_init; [exact Hoks|apply Hpl]|].
  rewrite exec_snoc in *. pose proof (step_labels_suffix e _ _ Hw) as Hw1.
  apply qi_step with (L := nodup Nat.eq_dec sched);
    first [assumption|apply Hie|apply (iter_inv e Hie progs Hp sched Hw1)|apply IH; exact Hw1|apply sinv_exec].
  split; [intros u; exact I|reflexivity].
Qed.

Theorem iter_C16_run : forall e, iter_env e -> e_crash e = None -> forall progs, wf_progs progs -> plain_progs progs -> forall sched,
  nowrap (c_labels (exec e (init progs) sched)) ->
  chk_C16 e (c_trace (exec e (init progs) sched)) = true.
Proof. intros e Hie Hnc progs Hp Hpl sched Hw. apply plain_C16, qi_exec; try assumption; [auto|apply Hpl]. Qed.

Theorem iter_C17_no_panic : forall e, iter_env e -> e_crash e = None -> forall progs, wf_progs progs -> plain_progs progs ->
  (forall t, Forall op_nz (progs t)) -> forall sched,
  nowrap (c_labels (exec e (init progs) sched)) ->
  chk_no_panic (c_trace (exec e (init progs) sched)) = true.
Proof.
  intros e Hie Hnc progs Hp Hpl Hnz sched Hw. apply plain_C17, qi_exec; try assumption; [tauto|apply plain_nz; assumption].
Qed.

Theorem iter_C16_final : forall e, iter_env e -> e_crash e = None -> forall progs, wf_progs progs -> plain_progs progs -> forall sched,
  nowrap (c_labels (exec e (init progs) sched)) -> forall t f,
  chk_C16 e (c_trace (final_step e (exec e (init progs) sched) t f)) = true.
Proof.
  intros e Hie Hnc progs Hp Hpl sched Hw t f.
  pose proof (iter_C16_run e Hie Hnc progs Hp Hpl sched Hw) as H. destruct Hie as (_ & Hk).
  unfold final_step, seq_res. rewrite Hk. destruct f as [|k]; exact H.
Qed.
