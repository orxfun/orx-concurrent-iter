(** * C13: the adaptors cloned() / copied() in the model.

    The model gives the adaptor no behaviour of its own: the field [e_adaptor] of the environment is
    not read by [step] nor by [final_step] (the crate's [Cloned] / [Copied] forward every method of the
    inner iterator and clone / copy what it delivers).  The theorems below state this as an equality of
    whole configurations for every schedule; they are what makes every other theorem of the
    development a theorem about the adaptors as well.  What ties the crate's adaptors to this model is
    the correspondence check: the crate's [cloned()] / [copied()] iterators are replayed against this
    model and, operation by operation, against the crate's own underlying iterator. *)
From Coq Require Import List ZArith.
From OCI Require Import Machine Checkers.
From OCI.proofs Require Import ArithOk InvKnown ChkKnown Borrowed.
Import ListNotations.
Open Scope N_scope.

Definition with_adaptor (e : env) (a : adaptor) : env :=
  {| e_kind := e_kind e; e_adaptor := a; e_len := e_len e; e_start := e_start e; e_end := e_end e;
     e_hint := e_hint e; e_owning := e_owning e; e_mode := e_mode e; e_crash := e_crash e; e_gap := e_gap e |}.

(** ** what a step reads of the environment

    [e'] is [e] but for the adaptor, the length, the end of a range, the overflow mode and the gaps.  It takes
    the same step from a configuration if it agrees with [e] on what the stepping thread reads of these where
    it stands: the index arithmetic of the known-size kinds at the reservation, in [skip_to_end] and in a
    length query; the answer of the wrapped next(); [k_len] in the second access of a length query.  The
    adaptor is read nowhere. *)
Section Reads.

Variables (e : env) (a : adaptor) (n en : N) (m : mode) (g : N -> bool).
Let e' := {| e_kind := e_kind e; e_adaptor := a; e_len := n; e_start := e_start e; e_end := en;
             e_hint := e_hint e; e_owning := e_owning e; e_mode := m; e_crash := e_crash e; e_gap := g |}.

(** [drops_after] is the one recursive function that takes the environment: here computation does not
    identify [e'] and [e] *)
Lemma drops_after_ext k rs : drops_after e' k rs = drops_after e k rs.
Proof.
  revert k. induction rs as [|r tl IH]; intros k; cbn [drops_after]; [reflexivity|].
  rewrite !IH. reflexivity.
Qed.

Lemma finish_ext c t sh ts l q pr : finish e' c t sh ts l q pr = finish e c t sh ts l q pr.
Proof.
  unfold finish, deliver. destruct (q_ctx q) as [|lk crash]; destruct pr as [[|b rs cnt]|k]; try reflexivity.
  - unfold deliver_top. destruct (q_mode q); rewrite ?drops_after_ext; reflexivity.
  - unfold deliver_loop. destruct (loop_invoke lk crash (total_cnt (t_acc ts)) rs cnt) as [inv [used|]];
      rewrite ?drops_after_ext; reflexivity.
Qed.

Lemma step_ext c t :
  (is_known (e_kind e) = true -> n = e_len e) ->
  (forall q, t_pc (c_pool c t) = PRes q -> is_known (e_kind e) = true ->
             k_pull e' q (s_c (c_sh c)) = k_pull e q (s_c (c_sh c))) ->
  (t_pc (c_pool c t) = PSkip -> is_known (e_kind e) = true ->
   k_fetch_n e' (e_len e) (s_c (c_sh c)) = k_fetch_n e (e_len e) (s_c (c_sh c))) ->
  (forall q b got, t_pc (c_pool c t) = PSrc q b got -> src_next e' (c_sh c) = src_next e (c_sh c)) ->
  (forall hm, t_pc (c_pool c t) = PLen2 hm -> k_len e' (s_c (c_sh c)) = k_len e (s_c (c_sh c))) ->
  step e' c t = step e c t.
Proof.
  intros Hlen Hpull Hfetch Hsrc Hlen2. unfold step.
  change (e_kind e') with (e_kind e). change (e_len e') with n.
  destruct (t_pc (c_pool c t)) as [|q|q b|q b|q b|q b got|q b got|q b got|q b got| |hm|hm] eqn:Hpc.
  - reflexivity.
  - unfold k_incr. change (e_len e') with n. rewrite finish_ext.
    destruct (e_kind e); try reflexivity; rewrite (Hpull q eq_refl eq_refl), Hlen; reflexivity.
  - rewrite finish_ext. reflexivity.
  - rewrite finish_ext. reflexivity.
  - rewrite finish_ext. reflexivity.
  - rewrite (Hsrc q b got eq_refl). reflexivity.
  - rewrite finish_ext. reflexivity.
  - rewrite !finish_ext. reflexivity.
  - reflexivity.
  - (* [destruct] changes [e'], of which [drops_after_ext] speaks *)
    pose proof drops_after_ext as Hdrops.
    destruct (e_kind e); try reflexivity; rewrite !Hlen by reflexivity; try reflexivity;
      rewrite (Hfetch eq_refl eq_refl); destruct (k_fetch_n e (e_len e) (s_c (c_sh c))) as [[|b rs cnt]|k];
      rewrite ?Hdrops; reflexivity.
  - unfold k_len. change (e_len e') with n. destruct (e_kind e); try reflexivity; rewrite !Hlen; reflexivity.
  - rewrite (Hlen2 hm eq_refl). reflexivity.
Qed.

End Reads.

Lemma exec_ext e e' : (forall c t, step e' c t = step e c t) -> forall sched c, exec e' c sched = exec e c sched.
Proof.
  intros H. unfold exec. induction sched as [|t s IH]; intros c; cbn [fold_left]; [reflexivity|].
  rewrite H. apply IH.
Qed.

Lemma step_adaptor e a c t : step (with_adaptor e a) c t = step e c t.
Proof. apply step_ext; reflexivity. Qed.

Theorem adaptor_transparent : forall e a progs sched t f,
  exec (with_adaptor e a) (init progs) sched = exec e (init progs) sched /\
  final_step (with_adaptor e a) (exec (with_adaptor e a) (init progs) sched) t f =
  final_step e (exec e (init progs) sched) t f.
Proof. intros. rewrite (exec_ext e _ (step_adaptor e a)). split; reflexivity. Qed.

(** the source of a reference-yielding iterator (known-size kinds, under any adaptor) is never touched:
    no element of it is destroyed by the iterator machinery, during the run and at the end of life *)
Theorem source_untouched : forall e, known_env e -> e_owning e = false ->
  forall progs, wf_progs progs -> forall sched,
  nowrap (c_labels (exec e (init progs) sched)) ->
  iv_total (dropped_all (c_trace (exec e (init progs) sched))) = 0 /\
  forall t f, n_pending (c_trace (exec e (init progs) sched)) = 0%Z ->
              iv_total (dropped_all (c_trace (final_step e (exec e (init progs) sched) t f))) = 0.
Proof.
  intros e _ Hown progs _ sched _. destruct (borrowed_source_untouched e Hown progs sched) as [H1 H2].
  rewrite H1. split; [reflexivity|]. intros t f _. rewrite H2. reflexivity.
Qed.
