(** * Non-vacuity: concrete contended runs that meet the hypotheses of the safety theorems (the premises
      [src_env], [wf_progs], [nowrap] are satisfiable together with real contention, a partial chunk, a
      skip, a loop and an end report). *)
From Coq Require Import Lia ZArith List.
From OCI Require Import Machine Checkers.
From OCI.proofs Require Import Base Trace ArithOk InvKnown ChkKnown IterBase ChkIter ChkAll IterFair GapFree AfterNone RunC16 Sequential.
Import ListNotations.
Open Scope N_scope.

Definition ex_progs : tid -> list op := fun t =>
  match t with
  | 0%nat => [Next NIdVal; Chunk 3 1; Loop LEnum 2 None]
  | 1%nat => [BufNew 2; BufNext 1; BufNext 2; BufDrop; TryLen]
  | 2%nat => [Next NVal; Skip; Next NVal; HasMore]
  | _ => []
  end.

Definition ex_sched : list tid := [0; 1; 2; 0; 1; 2; 1; 0; 0; 2; 1; 2; 0; 1; 1; 2; 0; 0; 1; 2; 2; 1; 0; 1; 2; 0; 1; 0; 2; 1; 0; 0; 1; 1; 2; 2; 0; 1; 2; 0]%nat.

Definition ex_env (k : kind) (own : bool) : env :=
  {| e_kind := k; e_adaptor := ANone; e_len := 7; e_start := 10; e_end := 17; e_hint := HExact;
     e_owning := own; e_mode := Checked; e_crash := None; e_gap := fun _ => false |}.

Lemma ex_wf_progs : wf_progs ex_progs.
Proof. intros [|[|[|t]]]; repeat constructor. Qed.

Example known_hypotheses_hold :
  forall k own, In (k, own) [(KSlice, false); (KVec, true); (KArray, true); (KRange, false)] ->
  known_env (ex_env k own) /\ wf_progs ex_progs /\
  nowrap (c_labels (exec (ex_env k own) (init ex_progs) ex_sched)) /\
  has_skip (c_trace (exec (ex_env k own) (init ex_progs) ex_sched)) = true /\
  (1 < n_pending (firstn 4 (rev (c_trace (exec (ex_env k own) (init ex_progs) ex_sched)))))%Z.
Proof.
  intros k own Hin. cbn [In] in Hin.
  repeat (destruct Hin as [Hin|Hin]; [injection Hin as <- <-|]); try contradiction;
    (split; [repeat split|]); (split; [exact ex_wf_progs|]);
    set (c := exec _ _ _); (split; [apply nowrapb_ok|]); vm_compute; repeat split.
Qed.

Example iter_hypotheses_hold :
  iter_env (ex_env KIter true) /\ wf_progs ex_progs /\
  nowrap (c_labels (exec (ex_env KIter true) (init ex_progs) ex_sched)) /\
  has_skip (c_trace (exec (ex_env KIter true) (init ex_progs) ex_sched)) = true.
Proof.
  split; [repeat split|]. split; [exact ex_wf_progs|].
  set (c := exec _ _ _). split; [apply nowrapb_ok|]; vm_compute; reflexivity.
Qed.

(** ** a wrapped iterator that is not fused

    Four elements; the second call of the wrapped next() answers None although three elements remain.
    Thread 0 pulls a chunk of two: it takes position 0 and meets the None.  Thread 1 (a buffered iterator
    of size two) reserves the next ticket and tests the completed flag BEFORE thread 0 raises it.  Thread 0
    then raises the flag and publishes its whole reservation: the yielded counter now equals the ticket of
    thread 1.  Thread 1 loads the yielded counter, finds that it is its turn -- and looks at the completed
    flag once more ([PChkT]; finding F19): the flag is up, so it reports the end without touching the wrapped
    iterator.  (Without that look it would enter the critical section and be handed positions 1 and 2 under
    the index 2 of its ticket.)  Both threads then pull once more and are told the end: the end is
    reported although the wrapped iterator has yielded only one of its four elements. *)
Definition gap_env : env :=
  {| e_kind := KIter; e_adaptor := ANone; e_len := 4; e_start := 0; e_end := 0; e_hint := HInexact;
     e_owning := true; e_mode := Checked; e_crash := None; e_gap := fun k => N.eqb k 1 |}.

Definition gap_progs : tid -> list op := fun t =>
  match t with
  | 0%nat => [Chunk 2 2; Next NVal]
  | 1%nat => [BufNew 2; BufNext 1; Next NIdVal]
  | _ => []
  end.

Definition gap_sched : list tid := [0; 0; 0; 0; 0; 0; 0; 1; 1; 1; 1; 0; 0; 1; 1; 0; 0; 0; 1; 1; 1]%nat.

Lemma gap_wf_progs : wf_progs gap_progs.
Proof. intros [|[|t]]; repeat constructor. Qed.

Example gap_hypotheses_hold :
  let c := exec gap_env (init gap_progs) gap_sched in
  iter_env gap_env /\ ~ fused gap_env /\ wf_progs gap_progs /\ nowrap (c_labels c) /\
  (* the end has been reported, nothing is pending, and the wrapped iterator has not been exhausted *)
  end_reported (c_trace c) = true /\ n_pending (c_trace c) = 0%Z /\ s_cur (c_sh c) = 1 /\ e_len gap_env = 4 /\
  (* the whole history: thread 0 is handed position 0 in a chunk that is short in the middle of the
     source; thread 1, whose ticket came up after the None, is told the end *)
  rev (c_trace c) =
    [ECall 0%nat (Chunk 2 2); ECall 1%nat (BufNew 2); ERet 1%nat RUnit []; ECall 1%nat (BufNext 1);
     ERet 0%nat (RChunk 0 [mk_run (Some 0) 0 1] 1 1 0) []; ERet 1%nat RNone [];
     ECall 0%nat (Next NVal); ERet 0%nat RNone []; ECall 1%nat (Next NIdVal); ERet 1%nat RNone []] /\
  (* the wrapped next() was called twice, by thread 0 only: nobody called it after it answered None *)
  filter (fun l => match l with LSrc _ _ | LSrcPanic _ => true | _ => false end) (rev (c_labels c)) =
    [LSrc 0%nat (Some 0); LSrc 0%nat None] /\
  (* the end is permanent, index fidelity holds (nothing is delivered after the None); the no-loss half of
     exactly-once and the "short only at the end" clause of the chunk contract do not survive the gap *)
  chk_C05 gap_env (c_trace c) = true /\ chk_C08 gap_env (c_trace c) = true /\
  chk_C02 gap_env (c_trace c) = true /\ chk_C01_nodup gap_env (c_trace c) = true /\ chk_C07 (c_labels c) = true /\
  chk_C01_noloss gap_env (c_trace c) = false /\ chk_C03 gap_env (c_trace c) = false.
Proof.
  intros c. split; [repeat split|]. split; [intros H; discriminate (H 1)|]. split; [exact gap_wf_progs|].
  split; [apply nowrapb_ok|]; vm_compute; repeat split.
Qed.

(** a thread leaves through the second look at the completed flag: after fourteen steps of the run above
    thread 1 has found its ticket equal to the yielded counter while the completed flag is up; its next
    step loads the flag (Relaxed), reports the end, and touches neither the wrapped iterator nor the
    counters *)
Example leaves_at_its_turn :
  let c14 := exec gap_env (init gap_progs) (firstn 14 gap_sched) in
  let c15 := exec gap_env (init gap_progs) (firstn 15 gap_sched) in
  t_pc (c_pool c14 1%nat) = PChkT {| q_n := 2; q_mode := MBuf 1; q_ctx := CTop |} 2 /\
  s_f (c_sh c14) = true /\ s_y (c_sh c14) = 2 /\
  hd_error (c_labels c14) = Some (LAtom 1%nat SY ALoad 0 2 ord_yielded_read_progress) /\
  c_sh c15 = c_sh c14 /\ t_pc (c_pool c15 1%nat) = PIdle /\
  c_labels c15 = LAtom 1%nat SF ALoad 0 1 ord_completed_load_progress_turn :: c_labels c14 /\
  c_trace c15 = ERet 1%nat RNone [] :: c_trace c14.
Proof.
  vm_compute. repeat split.
Qed.

(** the hypothesis of the "until the first premature None" theorems is satisfiable by an iterator that is
    not fused: after the first six steps of the run above the wrapped next() has been called once and has
    yielded position 0; the seventh step is the call that answers None although three elements remain *)
Example gap_free_prefix :
  gap_free gap_env (s_calls (c_sh (exec gap_env (init gap_progs) (firstn 6 gap_sched)))) /\
  s_cur (c_sh (exec gap_env (init gap_progs) (firstn 6 gap_sched))) = 1 /\
  ~ gap_free gap_env (s_calls (c_sh (exec gap_env (init gap_progs) (firstn 7 gap_sched)))).
Proof.
  split; [|split].
  - intros k Hk. change (k < 1) in Hk. assert (k = 0) as -> by lia. reflexivity.
  - reflexivity.
  - intros H. discriminate (H 1 eq_refl).
Qed.

(** without the second look at the completed flag ([PChkT]; finding F19) the run below would hand position 4
    to thread 2 under index 5 and leave positions 2 and 3 in a chunk of index 3 of thread 1: the checker of
    the no-duplicate half of C01 (which accounts for the elements left in a chunk by the INDEX of the chunk
    and for the others by their VALUE) objects to that.  With it the two threads whose tickets come up after
    the None are told the end: indices and positions never differ.  What remains of the gap: the chunk of
    thread 0 is short in the middle of the source (C03 judged with the length of the source), and the end
    is reported while elements remain *)
Definition gap2_env : env :=
  {| e_kind := KIter; e_adaptor := ANone; e_len := 6; e_start := 0; e_end := 0; e_hint := HInexact;
     e_owning := true; e_mode := Checked; e_crash := None; e_gap := fun k => N.eqb k 2 |}.

Definition gap2_progs : tid -> list op := fun t =>
  match t with 0%nat => [Chunk 3 3] | 1%nat => [Chunk 2 0] | 2%nat => [Next NVal] | _ => [] end.

Definition gap2_sched : list tid :=
  [0; 0; 1; 1; 2; 2; 0; 0; 1; 2; 1; 2; 0; 0; 0; 0; 1; 2; 0; 0; 1; 1; 2; 2]%nat.

Example gap_mixed_accounting_repaired :
  let c := exec gap2_env (init gap2_progs) gap2_sched in
  iter_env gap2_env /\ nowrap (c_labels c) /\
  rev (c_trace c) =
    [ECall 0%nat (Chunk 3 3); ECall 1%nat (Chunk 2 0); ECall 2%nat (Next NVal);
     ERet 0%nat (RChunk 0 [mk_run (Some 0) 0 2] 2 2 0) [];
     ERet 1%nat RNone [];
     ERet 2%nat RNone []] /\
  chk_C01_nodup gap2_env (c_trace c) = true /\ chk_C02 gap2_env (c_trace c) = true /\
  chk_C03 gap2_env (c_trace c) = false /\ chk_C01_noloss gap2_env (c_trace c) = false /\
  pairwise_disj (taken_all gap2_env (c_trace c) ++ dropped_all (c_trace c)) = true /\
  chk_C05 gap2_env (c_trace c) = true /\ chk_C07 (c_labels c) = true /\ chk_C08 gap2_env (c_trace c) = true.
Proof.
  intros c. split; [repeat split|]. split; [apply nowrapb_ok|]; vm_compute; repeat split.
Qed.

(** the two runs above, judged against the fused iterator that ends where the first None was answered
    ([AfterNone.cut]): the hypotheses of the "any iterator" theorems are satisfiable by iterators that are
    not fused, the whole of C01, C03 and C12 holds with the length of the source replaced by the number of
    elements yielded before the first None, the run of the cut environment is the very same run, and the
    wrapped next() is never called after it has answered None *)
Example gap_judged_against_the_cut :
  let c := exec gap_env (init gap_progs) gap_sched in
  let c2 := exec gap2_env (init gap2_progs) gap2_sched in
  first_gap gap_env 1 /\ e_len (cut gap_env 1) = 1 /\
  first_gap gap2_env 2 /\ e_len (cut gap2_env 2) = 2 /\
  check_prop 1 (cut gap_env 1) (c_trace c) (c_labels c) = true /\
  check_prop 3 (cut gap_env 1) (c_trace c) (c_labels c) = true /\
  check_prop 12 (cut gap_env 1) (c_trace c) (c_labels c) = true /\
  check_prop 1 (cut gap2_env 2) (c_trace c2) (c_labels c2) = true /\
  check_prop 3 (cut gap2_env 2) (c_trace c2) (c_labels c2) = true /\
  c_trace (exec (cut gap_env 1) (init gap_progs) gap_sched) = c_trace c /\
  c_labels (exec (cut gap_env 1) (init gap_progs) gap_sched) = c_labels c /\
  c_sh (exec (cut gap_env 1) (init gap_progs) gap_sched) = c_sh c /\
  no_src_after_none (c_labels c) = true /\ no_src_after_none (c_labels c2) = true /\
  existsb is_none (c_labels c) = true /\ existsb is_none (c_labels c2) = true.
Proof.
  intros c c2.
  split; [split; [intros k Hk; assert (k = 0) as -> by lia; reflexivity|reflexivity]|].
  split; [reflexivity|].
  split; [split; [intros k Hk; assert (k = 0 \/ k = 1) as [-> | ->] by lia; reflexivity|reflexivity]|].
  split; [reflexivity|]. vm_compute. repeat split.
Qed.

(** ** a single thread (C04, the sequential corollary)

    One thread over a source of seven elements: a single pull, a chunk of three of which it takes one, a
    buffered iterator of size two of which it takes one element, a length query, an enumerated loop with
    chunk size two, and a pull that is told the end.  The hypotheses of
    [C04.c04_single_thread_is_sequential_programs] hold for the five kinds; the return events deliver
    [0,1), [1,2) and [2,4) (the chunk: taken and not taken), [4,5) and [5,6) (the buffered chunk), [6,7) (the
    loop): the positions 0 .. 6 in this order.  After 14 steps of the wrapped iterator's run the thread is
    inside its chunk pull (it has called the wrapped next() twice): the statement is about every such state *)
Definition solo_progs : tid -> list op := fun t =>
  match t with
  | 0%nat => [Next NIdVal; Chunk 3 1; BufNew 2; BufNext 1; TryLen; Loop LEnum 2 None; Next NVal]
  | _ => [Next NVal]
  end.

Lemma solo_wf_progs : wf_progs solo_progs.
Proof. intros [|t]; repeat constructor. Qed.

Lemma solo_plain_progs : plain_progs solo_progs.
Proof. intros [|t]; repeat constructor. Qed.

Lemma solo_op_nz : forall t, Forall op_nz (solo_progs t).
Proof. intros [|t]; repeat constructor; discriminate. Qed.

Example single_thread_is_sequential :
  forall k own, In (k, own) [(KSlice, false); (KVec, true); (KArray, true); (KRange, false); (KIter, true)] ->
  let e := ex_env k own in
  let c := exec e (init solo_progs) (repeat 0%nat 60) in
  src_env e /\ e_crash e = None /\ wf_progs solo_progs /\ plain_progs solo_progs /\
  (forall t, Forall op_nz (solo_progs t)) /\ nowrap (c_labels c) /\
  end_reported (c_trace c) = true /\ n_pending (c_trace c) = 0%Z /\
  cov_in_order e (c_trace c) = [(0, 1); (1, 1); (2, 2); (4, 1); (5, 1); (6, 1)] /\
  positions (cov_in_order e (c_trace c)) = [0; 1; 2; 3; 4; 5; 6].
Proof.
  intros k own Hin e c. cbn [In] in Hin.
  repeat (destruct Hin as [Hin|Hin]; [injection Hin as <- <-|]); try contradiction;
    (split; [solve [left; repeat split|right; repeat split]|]); (split; [reflexivity|]);
    (split; [exact solo_wf_progs|]); (split; [exact solo_plain_progs|]); (split; [exact solo_op_nz|]);
    (split; [apply nowrapb_ok|]); vm_compute; repeat split.
Qed.

Example single_thread_inside_an_operation :
  let e := ex_env KIter true in
  let c := exec e (init solo_progs) (repeat 0%nat 14) in
  n_pending (c_trace c) = 1%Z /\
  t_pc (c_pool c 0%nat) = PSrc {| q_n := 3; q_mode := MChunk 1; q_ctx := CTop |} 1 [2; 1] /\
  nowrap (c_labels c) /\ has_panic (c_trace c) = false /\
  cov_in_order e (c_trace c) = [(0, 1)] /\
  adjacent_from 0 (cov_in_order e (c_trace c)) = true.
Proof.
  intros e c. split; [vm_compute; reflexivity|]. split; [vm_compute; reflexivity|].
  split; [apply nowrapb_ok|]; vm_compute; repeat split.
Qed.
