(** * The checkers on every trace of the wrapper over an arbitrary iterator (ConIterOfIter). *)
From Coq Require Import Lia ZArith Permutation.
From OCI Require Import Machine Checkers.
From OCI.proofs Require Import Base Trace ArithOk InvKnown ChkKnown IterBase IterProt InvIterA InvIterB.
Open Scope N_scope.

(** a wrapped iterator of any length below 2^64, with any size hint, owning its elements or not *)
Definition iter_env (e : env) : Prop := wf_env e /\ e_kind e = KIter.

Lemma iter_quiescent_helds e L c0 : IInvA e L c0 -> n_pending (c_trace c0) = 0%Z -> helds e L (c_pool c0) = [].
Proof.
  intros A Hq. rewrite (a_pend e L c0 A) in Hq.
  apply gather_nil. intros t Ht.
  pose proof (none_pending (c_pool c0) L Hq t Ht) as Ei.
  apply held_idle.
  - unfold is_idle in Ei. destruct (t_pc (c_pool c0 t)); try discriminate. reflexivity.
  - apply (iacc_idle e L c0 t A Ei).
Qed.

Section Iter.

Variable e : env.
Hypothesis Hie : iter_env e.
Hypothesis Hfu : fused e.
Variable progs : tid -> list op.
Hypothesis Hp : wf_progs progs.
Variable sched : list tid.

Let c := exec e (init progs) sched.
Let L := nodup Nat.eq_dec sched.

Hypothesis Hnw : nowrap (c_labels c).

Lemma iter_inv : IInvA e L c /\ IInvB e c.
Proof.
  destruct Hie as (_ & Hk).
  apply iAB_exec; try assumption.
  - apply NoDup_nodup.
  - apply Forall_forall. intros t Ht. apply nodup_In. exact Ht.
Qed.

(** C07 (a): at most one thread is inside the critical section, in every reachable state *)
Theorem iter_mutex : forall t u,
  in_crit (t_pc (c_pool c t)) = true -> in_crit (t_pc (c_pool c u)) = true -> t = u.
Proof. destruct iter_inv as [A _]. apply (mutex e L c A). Qed.

Lemma iter_ev_late : chk_C05 e (c_trace c) = true /\ chk_C06_stop e (c_trace c) = true /\ chk_C12_shape (c_trace c) = true.
Proof.
  destruct iter_inv as [_ B]. pose proof (b_evs5 e c B) as H. unfold ev_late in H.
  rewrite !all_rets_and, !andb_true_iff in H. destruct H as [[H5 H6] H12]. repeat split; assumption.
Qed.

Lemma iter_ev_pos : chk_C02 e (c_trace c) = true /\ chk_C03 e (c_trace c) = true /\ chk_C04_order e (c_trace c) = true.
Proof.
  destruct iter_inv as [_ B]. pose proof (bf_evs e c (b_fu e c B Hfu)) as H. unfold ev_pos in H.
  rewrite !all_rets_and, !andb_true_iff in H. destruct H as [[H2 H3] H4]. repeat split; assumption.
Qed.

Theorem iter_C02 : chk_C02 e (c_trace c) = true.
Proof. apply iter_ev_pos. Qed.
Theorem iter_C03 : chk_C03 e (c_trace c) = true.
Proof. apply iter_ev_pos. Qed.
Theorem iter_C04_order : chk_C04_order e (c_trace c) = true.
Proof. apply iter_ev_pos. Qed.
(** C05, the stopping clause of C06 and the shape clause of C12: every wrapped iterator, fused or not *)
Theorem iter_C05 : chk_C05 e (c_trace c) = true.
Proof. apply iter_ev_late. Qed.
Theorem iter_C06_stop : chk_C06_stop e (c_trace c) = true.
Proof. apply iter_ev_late. Qed.
Theorem iter_C12_shape : chk_C12_shape (c_trace c) = true.
Proof. apply iter_ev_late. Qed.

Theorem iter_nodup : chk_C01_nodup e (c_trace c) = true.
Proof.
  destruct iter_inv as [A _]. pose proof (a_til e L c A Hfu) as [Hd Hw _ _].
  rewrite pairwise_disj_app, !andb_true_iff in Hd. rewrite iv_within_app, andb_true_iff in Hw.
  unfold chk_C01_nodup. rewrite (proj1 (proj1 Hd)).
  apply iv_within_mono with (s_cur (c_sh c)); [exact (p_cur _ _ _ _ _ (a_prot e L c A))|exact (proj1 Hw)].
Qed.

(** once the end has been reported, in a history without skip and panic, the cursor of the wrapped iterator
    is at the end of the source; at a quiescent point everything it yielded has been delivered *)
Lemma iter_noloss : (if has_skip (c_trace c) || has_panic (c_trace c) then true else chk_C01_noloss e (c_trace c)) = true.
Proof.
  destruct (has_skip (c_trace c)) eqn:Hs; [reflexivity|]. destruct (has_panic (c_trace c)) eqn:Hpn; [reflexivity|].
  unfold chk_C01_noloss. destruct iter_inv as [A B].
  destruct (end_reported (c_trace c)) eqn:Ee; [|reflexivity].
  destruct (Z.eqb_spec (n_pending (c_trace c)) 0) as [Eq|]; [|reflexivity].
  pose proof (a_til e L c A Hfu) as T. rewrite (iter_quiescent_helds e L c A Eq), app_nil_r in T.
  unfold npanic in T. rewrite Hpn in T.
  destruct (b_f e c B Hfu (b_endf e c B Ee)) as [Hcur|[H|H]]; [|apply skip_returned_has_skip in H; congruence|congruence].
  rewrite Hcur in T. unfold tiles.
  rewrite (tl_disj _ _ _ T), (tl_within _ _ _ T), (tl_total _ _ _ T eq_refl), N.eqb_refl. reflexivity.
Qed.

Theorem iter_C01 : check_prop 1 e (c_trace c) (c_labels c) = true.
Proof. cbn [check_prop]. rewrite iter_nodup. exact iter_noloss. Qed.

Theorem iter_C06 : check_prop 6 e (c_trace c) (c_labels c) = true.
Proof.
  cbn [check_prop]. unfold chk_C06. rewrite iter_C06_stop, iter_nodup, iter_C02, iter_C04_order. reflexivity.
Qed.

Theorem iter_C12 : check_prop 12 e (c_trace c) (c_labels c) = true.
Proof.
  cbn [check_prop]. unfold c at 2. rewrite iter_C12_shape, src_panic_ok, iter_nodup, iter_C02, iter_C05. exact iter_noloss.
Qed.

End Iter.

Section IterPrefix.

Variable e : env.
Hypothesis Hie : iter_env e.
Hypothesis Hfu : fused e.
Variable progs : tid -> list op.
Hypothesis Hp : wf_progs progs.

Lemma iter_quiescent_gap L c0 : IInvA e L c0 -> n_pending (c_trace c0) = 0%Z -> has_panic (c_trace c0) = false ->
  iv_total (cov e (c_trace c0)) = iv_maxhi (cov e (c_trace c0)).
Proof.
  intros A Hq Hnp. pose proof (a_til e L c0 A Hfu) as T.
  rewrite (iter_quiescent_helds e L c0 A Hq), app_nil_r in T.
  assert (Hn : npanic (c_trace c0) = true) by (unfold npanic; rewrite Hnp; reflexivity).
  rewrite (tl_total _ _ _ T Hn), (tl_maxhi _ _ _ T Hn). reflexivity.
Qed.

Lemma iter_pending_nonneg L c0 : IInvA e L c0 -> (0 <= n_pending (c_trace c0))%Z.
Proof.
  intros A. rewrite (a_pend e L c0 A). apply sumZ_nonneg. intros t _. unfold pendZ. destruct (is_idle (c_pool c0 t)); lia.
Qed.

(** the points of the history are the states of the run, where the invariant applies, and the point between
    the call and the return of an operation that returns at once, where that call is pending *)
Theorem iter_prefix sched :
  nowrap (c_labels (exec e (init progs) sched)) ->
  has_panic (c_trace (exec e (init progs) sched)) = false ->
  chk_C04_prefix e (c_trace (exec e (init progs) sched)) = true.
Proof.
  induction sched as [|t s IH] using rev_ind; intros Hw Hnp; [reflexivity|].
  destruct (iter_inv e Hie progs Hp _ Hw) as [A' _]. rewrite exec_snoc in *.
  pose proof (step_labels_suffix e _ _ Hw) as Hw0.
  destruct (iter_inv e Hie progs Hp s Hw0) as [A _]. set (c0 := exec e (init progs) s) in *.
  assert (Hq : (if (n_pending (c_trace (step e c0 t)) =? 0)%Z
                then iv_total (cov e (c_trace (step e c0 t))) =? iv_maxhi (cov e (c_trace (step e c0 t))) else true) = true).
  { destruct (Z.eqb_spec (n_pending (c_trace (step e c0 t))) 0) as [Hz|]; [|reflexivity].
    apply N.eqb_eq, (iter_quiescent_gap _ _ A' Hz Hnp). }
  destruct (step_commit e c0 t) as [Est|(ts & l & evs & _ & Hshape & Est)]; rewrite Est in *; [exact (IH Hw0 Hnp)|].
  cbn [commit c_trace] in *. specialize (IH Hw0 (has_panic_app_false _ _ Hnp)).
  destruct Hshape as [->|[(ev & -> & _)|(r & d & o & ->)]]; cbn [app chk_C04_prefix] in *; rewrite ?Hq, IH; try reflexivity.
  rewrite n_pending_call. pose proof (iter_pending_nonneg _ _ A).
  destruct (Z.eqb_spec (n_pending (c_trace c0) + 1) 0); [lia|reflexivity].
Qed.

Theorem iter_C04 sched :
  nowrap (c_labels (exec e (init progs) sched)) ->
  check_prop 4 e (c_trace (exec e (init progs) sched)) (c_labels (exec e (init progs) sched)) = true.
Proof.
  intros Hw. cbn [check_prop]. rewrite (iter_nodup e Hie Hfu progs Hp sched Hw), (iter_C04_order e Hie Hfu progs Hp sched Hw).
  destruct (has_panic (c_trace (exec e (init progs) sched))) eqn:Hnp; [reflexivity|].
  apply iter_prefix; assumption.
Qed.

End IterPrefix.

(** at a quiescent point without panics, as many elements have been delivered as the wrapped iterator has
    yielded -- every wrapped iterator, fused or not (when it is fused they are the positions [0, cursor)) *)
Lemma iter_quiescent_total e L c : IInvA e L c -> n_pending (c_trace c) = 0%Z -> has_panic (c_trace c) = false ->
  iv_total (cov e (c_trace c)) = s_cur (c_sh c).
Proof.
  intros A Hq Hnp. pose proof (a_cnt e L c A) as T. rewrite (iter_quiescent_helds e L c A Hq), app_nil_r in T.
  apply T. unfold npanic. rewrite Hnp. reflexivity.
Qed.

Theorem iter_C10_final : forall e, iter_env e -> forall progs, wf_progs progs -> forall sched,
  nowrap (c_labels (exec e (init progs) sched)) ->
  forall t k, n_pending (c_trace (exec e (init progs) sched)) = 0%Z ->
  chk_C10 e (c_trace (final_step e (exec e (init progs) sched) t (FIntoSeq k))) = true.
Proof.
  intros e Hie progs Hp sched Hnw t k Hq.
  destruct (iter_inv e Hie progs Hp sched Hnw) as [A _]. destruct Hie as (_ & Hk).
  set (c := exec e (init progs) sched).
  unfold final_step, seq_res, nz_run, mk_run. rewrite Hk. cbn [c_trace chk_C10].
  rewrite (N.min_l (s_cur (c_sh c)) (e_len e)) by exact (p_cur _ _ _ _ _ (a_prot e _ c A)).
  destruct (has_panic (c_trace c)) eqn:Hnp; [reflexivity|].
  rewrite (iter_quiescent_total e _ c A Hq Hnp). unfold pos_of, val_of. rewrite Hk. set (m := s_cur (c_sh c)).
  destruct (has_skip (c_trace c)), (N.eqb_spec (N.min k (e_len e - m)) 0); cbn [r_val];
    rewrite ?N.eqb_refl, ?N.leb_refl; try reflexivity.
  destruct (N.ltb_spec (N.min k (e_len e - m)) k); [apply N.eqb_eq|apply N.leb_le]; lia.
Qed.

(** nothing is lost and nothing is invented: at every quiescent point of a run without panics the number
    of elements delivered is the number of elements the wrapped iterator has yielded -- every wrapped
    iterator, fused or not *)
Theorem iter_delivered_count : forall e, iter_env e -> forall progs, wf_progs progs -> forall sched,
  nowrap (c_labels (exec e (init progs) sched)) ->
  n_pending (c_trace (exec e (init progs) sched)) = 0%Z ->
  has_panic (c_trace (exec e (init progs) sched)) = false ->
  iv_total (cov e (c_trace (exec e (init progs) sched))) = s_cur (c_sh (exec e (init progs) sched)).
Proof.
  intros e Hie progs Hp sched Hnw Hq Hnp.
  destruct (iter_inv e Hie progs Hp sched Hnw) as [A _].
  apply (iter_quiescent_total e _ _ A Hq Hnp).
Qed.
Print Assumptions iter_delivered_count.
