(** * As long as the wrapped iterator has not answered a premature None, it is as good as fused.

    A run on which no call of the wrapped next() executed so far is a gap ([e_gap] is false below the
    number of calls made) is, step for step, the run of the fused iterator [fuse e (e_len e)].  Everything
    that is proved for fused wrapped iterators therefore holds on every run of an arbitrary wrapped iterator
    up to, and not including, the call in which it first answers None although elements remain. *)
From Coq Require Import Lia ZArith List.
From OCI Require Import Machine Checkers.
From OCI.proofs Require Import Trace History InvKnown ChkKnown IterBase ChkIter IterC11 Adaptor.
Import ListNotations.
Open Scope N_scope.

Definition fuse (e : env) (n : N) : env :=
  {| e_kind := e_kind e; e_adaptor := e_adaptor e; e_len := n; e_start := e_start e; e_end := e_end e;
     e_hint := e_hint e; e_owning := e_owning e; e_mode := e_mode e; e_crash := e_crash e; e_gap := fun _ => false |}.

Lemma fuse_fused e n : fused (fuse e n).
Proof. intros k. reflexivity. Qed.

Lemma fuse_iter_env e n : iter_env e -> n <= e_len e -> iter_env (fuse e n).
Proof.
  intros [[Hl _] Hk] Hn. split; [|exact Hk]. split; [cbn [fuse e_len]; lia|].
  cbn [fuse e_kind]. rewrite Hk. exact I.
Qed.

Definition gap_free (e : env) (n : N) : Prop := forall k, k < n -> e_gap e k = false.

(** ** the machine: [e] and [fuse e n] take the same steps as long as the wrapped next() answers alike

    The histories of the two runs are compared as [f] shows them: the answer of a length query of a wrapped
    iterator with an exact size hint depends on [e_len]. *)

(** one step from one configuration: a wrapped iterator looks at [e_len] and [e_gap] in a call of the wrapped next()
    and in the second access of a length query only *)
Lemma step_fuse_eq e n c t :
  e_kind e = KIter ->
  (forall q b got, t_pc (c_pool c t) = PSrc q b got -> src_next (fuse e n) (c_sh c) = src_next e (c_sh c)) ->
  (forall hm, t_pc (c_pool c t) = PLen2 hm -> k_len (fuse e n) (s_c (c_sh c)) = k_len e (s_c (c_sh c))) ->
  step (fuse e n) c t = step e c t.
Proof.
  intros Hk Hsrc Hlen. apply step_ext; [..|exact Hsrc|exact Hlen]; rewrite Hk; discriminate.
Qed.

Lemma pc_len2_dec p : (exists hm, p = PLen2 hm) \/ forall hm, p <> PLen2 hm.
Proof. destruct p; try (right; discriminate). left. eexists. reflexivity. Qed.

Lemma step_fuse f e n c c' t :
  e_kind e = KIter -> agree f c c' ->
  (forall q b got, t_pc (c_pool c t) = PSrc q b got -> src_next (fuse e n) (c_sh c) = src_next e (c_sh c)) ->
  (forall hm, t_pc (c_pool c t) = PLen2 hm ->
     f (ERet t (len_res hm (Some (k_len e (s_c (c_sh c))))) []) =
     f (ERet t (len_res hm (Some (k_len (fuse e n) (s_c (c_sh c))))) [])) ->
  agree f (step e c t) (step (fuse e n) c' t).
Proof.
  intros Hk H Hsrc Hlen.
  destruct (pc_len2_dec (t_pc (c_pool c t))) as [(hm & Hpc)|Hn].
  - pose proof H as (H1 & H2 & _).
    rewrite (istep_len2 e c t hm Hpc), (istep_len2 (fuse e n) c' t hm) by (rewrite <- H2; exact Hpc).
    rewrite <- H1, <- H2. apply agree_commit; [exact H|]. cbn [map]. rewrite (Hlen hm Hpc). reflexivity.
  - rewrite <- (step_fuse_eq e n c t Hk Hsrc) by (intros hm Hpc; contradiction (Hn hm)).
    apply agree_step. exact H.
Qed.

Lemma step_calls_mono e c t : s_calls (c_sh c) <= s_calls (c_sh (step e c t)).
Proof.
  destruct (step_commit e c t) as [->|(ts & l & evs & _ & _ & ->)]; [lia|].
  cbn [commit c_sh]. rewrite sh_after_calls. lia.
Qed.

Lemma step_calls_src e c t q b got :
  t_pc (c_pool c t) = PSrc q b got -> s_calls (c_sh (step e c t)) = s_calls (c_sh c) + 1.
Proof.
  intros Hpc. unfold step. rewrite Hpc. destruct (crashes_now e (c_sh c)); [reflexivity|].
  destruct (q_mode q), (src_next e (c_sh c)); try reflexivity; destruct (_ =? q_n q); reflexivity.
Qed.

Lemma exec_gap_free e c sched :
  e_kind e = KIter -> gap_free e (s_calls (c_sh (exec e c sched))) ->
  exec (fuse e (e_len e)) c sched = exec e c sched.
Proof.
  intros Hk. induction sched as [|t s IH] using rev_ind; intros H; [reflexivity|].
  rewrite !exec_snoc in *. pose proof (step_calls_mono e (exec e c s) t) as Hm.
  rewrite IH by (intros k Hlt; apply H; lia).
  apply step_fuse_eq; [exact Hk| |reflexivity].
  intros q b got Hpc. rewrite (step_calls_src e _ t q b got Hpc) in H.
  unfold src_next. rewrite H by lia. reflexivity.
Qed.

(** ** the checkers do not look at [e_gap], and only some of them at [e_len] *)

Lemma cov_fuse e n tr : cov (fuse e n) tr = cov e tr.
Proof. induction tr as [|ev tr IH]; [reflexivity|]. destruct ev; cbn [cov]; rewrite ?IH; reflexivity. Qed.

Lemma cov_of_fuse e n t tr : cov_of (fuse e n) t tr = cov_of e t tr.
Proof. induction tr as [|ev tr IH]; [reflexivity|]. destruct ev; cbn [cov_of]; rewrite ?IH; reflexivity. Qed.

Lemma all_rets_ext (P Q : tid -> res -> list drops -> list event -> bool) tr :
  (forall t r d tl, P t r d tl = Q t r d tl) -> all_rets P tr = all_rets Q tr.
Proof.
  intros H. induction tr as [|ev tr IH]; [reflexivity|]. destruct ev; cbn [all_rets]; rewrite ?H, ?IH; reflexivity.
Qed.

Lemma C04_order_fuse e n tr : chk_C04_order (fuse e n) tr = chk_C04_order e tr.
Proof.
  apply all_rets_ext. intros t r d tl. unfold ev_C04. rewrite cov_of_fuse.
  destruct (split_call t tl) as [[o older]|]; [rewrite cov_fuse|]; reflexivity.
Qed.

Lemma C04_prefix_fuse e n tr : chk_C04_prefix (fuse e n) tr = chk_C04_prefix e tr.
Proof. induction tr as [|ev tr IH]; [reflexivity|]. cbn [chk_C04_prefix]. rewrite IH, cov_fuse. reflexivity. Qed.

Lemma C05_fuse e n tr : chk_C05 (fuse e n) tr = chk_C05 e tr.
Proof. reflexivity. Qed.

Lemma C06_stop_fuse e n tr : chk_C06_stop (fuse e n) tr = chk_C06_stop e tr.
Proof. reflexivity. Qed.

Lemma C12_src_fuse e n tr : chk_C12_src (fuse e n) tr = chk_C12_src e tr.
Proof. reflexivity. Qed.

(** with the length of [e], the others *)
Lemma nodup_fuse e tr : chk_C01_nodup (fuse e (e_len e)) tr = chk_C01_nodup e tr.
Proof. unfold chk_C01_nodup. rewrite cov_fuse. reflexivity. Qed.

Lemma noloss_fuse e tr : chk_C01_noloss (fuse e (e_len e)) tr = chk_C01_noloss e tr.
Proof. unfold chk_C01_noloss. rewrite cov_fuse. reflexivity. Qed.

Lemma C02_fuse e tr : chk_C02 (fuse e (e_len e)) tr = chk_C02 e tr.
Proof. reflexivity. Qed.

Lemma C03_fuse e tr : chk_C03 (fuse e (e_len e)) tr = chk_C03 e tr.
Proof. reflexivity. Qed.

Lemma C11_fuse e tr : chk_C11 (fuse e (e_len e)) tr = chk_C11 e tr.
Proof.
  apply all_rets_ext. intros t r d tl. unfold ev_C11.
  destruct (split_call t tl) as [[o older]|]; [rewrite cov_fuse|]; reflexivity.
Qed.

Lemma iter_fused_checks e progs sched : iter_env e -> fused e -> wf_progs progs ->
  nowrap (c_labels (exec e (init progs) sched)) ->
  let tr := c_trace (exec e (init progs) sched) in
  let ls := c_labels (exec e (init progs) sched) in
  check_prop 1 e tr ls = true /\ check_prop 2 e tr ls = true /\ check_prop 3 e tr ls = true /\
  check_prop 4 e tr ls = true /\ check_prop 6 e tr ls = true /\ check_prop 11 e tr ls = true /\
  check_prop 12 e tr ls = true.
Proof.
  intros Hie Hfu Hp Hw. repeat split;
    [apply iter_C01|apply iter_C02|apply iter_C03|apply iter_C04|apply iter_C06|apply iter_C11|apply iter_C12]; assumption.
Qed.

Section UntilGap.

Variable e : env.
Hypothesis Hie : iter_env e.
Variable progs : tid -> list op.
Hypothesis Hp : wf_progs progs.
Variable sched : list tid.
Hypothesis Hw : nowrap (c_labels (exec e (init progs) sched)).
Hypothesis Hg : gap_free e (s_calls (c_sh (exec e (init progs) sched))).

Let tr := c_trace (exec e (init progs) sched).
Let ls := c_labels (exec e (init progs) sched).

Theorem iter_until_first_gap :
  check_prop 1 e tr ls = true /\ check_prop 2 e tr ls = true /\ check_prop 3 e tr ls = true /\
  check_prop 4 e tr ls = true /\ check_prop 6 e tr ls = true /\ check_prop 11 e tr ls = true /\
  check_prop 12 e tr ls = true.
Proof.
  pose proof (exec_gap_free e (init progs) sched (proj2 Hie) Hg) as Ex.
  assert (Hw' : nowrap (c_labels (exec (fuse e (e_len e)) (init progs) sched))) by (rewrite Ex; exact Hw).
  pose proof (iter_fused_checks (fuse e (e_len e)) progs sched (fuse_iter_env e _ Hie (N.le_refl _)) (fuse_fused e _) Hp Hw') as H.
  rewrite Ex in H. cbn [check_prop] in *. unfold chk_C06 in *.
  rewrite nodup_fuse, noloss_fuse, C02_fuse, C03_fuse, C04_order_fuse, C04_prefix_fuse,
          C05_fuse, C06_stop_fuse, C11_fuse, C12_src_fuse in H.
  exact H.
Qed.

Theorem iter_C01_until_gap : check_prop 1 e tr ls = true.
Proof. apply iter_until_first_gap. Qed.
Theorem iter_C02_until_gap : check_prop 2 e tr ls = true.
Proof. apply iter_until_first_gap. Qed.
Theorem iter_C03_until_gap : check_prop 3 e tr ls = true.
Proof. apply iter_until_first_gap. Qed.
Theorem iter_C04_until_gap : check_prop 4 e tr ls = true.
Proof. apply iter_until_first_gap. Qed.
Theorem iter_C06_until_gap : check_prop 6 e tr ls = true.
Proof. apply iter_until_first_gap. Qed.
Theorem iter_C11_until_gap : check_prop 11 e tr ls = true.
Proof. apply iter_until_first_gap. Qed.
Theorem iter_C12_until_gap : check_prop 12 e tr ls = true.
Proof. apply iter_until_first_gap. Qed.

End UntilGap.

Print Assumptions iter_until_first_gap.
