(** * Generic lemmas: thread pools as functions, finite sums and gatherings over a fixed list of
      threads, interval lists up to permutation. *)
From Coq Require Import Lia Permutation ZArith.
From OCI Require Import Machine Checkers.
Open Scope N_scope.

Lemma upd_same {A} (f : tid -> A) t x : upd f t x t = x.
Proof. unfold upd. now rewrite Nat.eqb_refl. Qed.

Lemma upd_other {A} (f : tid -> A) t x u : u <> t -> upd f t x u = f u.
Proof. unfold upd. destruct (Nat.eqb_spec u t); congruence. Qed.

Fixpoint sumZ (f : tid -> Z) (L : list tid) : Z :=
  match L with [] => 0%Z | t :: tl => (f t + sumZ f tl)%Z end.

Lemma sumZ_ext f g L : (forall t, In t L -> f t = g t) -> sumZ f L = sumZ g L.
Proof.
  induction L as [|a L IH]; cbn [sumZ]; intros H; [reflexivity|].
  rewrite (H a (in_eq a L)), IH; [reflexivity|]. intros t Ht. apply H, in_cons, Ht.
Qed.

Lemma sumZ_upd_notin (f : tid -> Z) L t x : ~ In t L -> sumZ (upd f t x) L = sumZ f L.
Proof. intros H. apply sumZ_ext. intros u Hu. apply upd_other. intros ->. contradiction. Qed.

Lemma sumZ_upd (f : tid -> Z) L t x : NoDup L -> In t L ->
  sumZ (upd f t x) L = (sumZ f L - f t + x)%Z.
Proof.
  induction L as [|a L IH]; intros ND Hin; [contradiction|].
  inversion ND as [|? ? Hna ND']; subst. cbn [sumZ].
  destruct Hin as [->|Hin].
  - rewrite upd_same, sumZ_upd_notin by assumption. lia.
  - rewrite upd_other by (intros ->; contradiction). rewrite IH by assumption. lia.
Qed.

Lemma sumZ_nonneg f L : (forall t, In t L -> (0 <= f t)%Z) -> (0 <= sumZ f L)%Z.
Proof.
  induction L as [|a L IH]; cbn [sumZ]; intros H; [lia|].
  pose proof (H a (in_eq a L)). pose proof (IH (fun t Ht => H t (in_cons a t L Ht))). lia.
Qed.

Lemma sumZ_zero f L : (forall t, In t L -> (0 <= f t)%Z) -> sumZ f L = 0%Z -> forall t, In t L -> f t = 0%Z.
Proof.
  induction L as [|a L IH]; cbn [sumZ]; intros H E t Ht; [contradiction|].
  pose proof (H a (in_eq a L)). pose proof (fun u Hu => H u (in_cons a u L Hu)) as H'.
  pose proof (sumZ_nonneg f L H'). destruct Ht as [->|Ht]; [lia|]. apply IH; [exact H'|lia|exact Ht].
Qed.

Definition gather {A} (f : tid -> list A) (L : list tid) : list A := flat_map f L.

Lemma gather_ext {A} (f g : tid -> list A) L : (forall t, In t L -> f t = g t) -> gather f L = gather g L.
Proof. intros H. unfold gather. rewrite !flat_map_concat_map. f_equal. apply map_ext_in, H. Qed.

Lemma gather_upd_notin {A} (f : tid -> list A) L t x : ~ In t L -> gather (upd f t x) L = gather f L.
Proof. intros H. apply gather_ext. intros u Hu. apply upd_other. intros ->. contradiction. Qed.

Lemma perm_under {A} (p l s rest : list A) : Permutation l (s ++ rest) -> Permutation (p ++ l) (s ++ p ++ rest).
Proof.
  intros P. apply Permutation_trans with (p ++ s ++ rest); [apply Permutation_app_head, P|apply Permutation_app_swap_app].
Qed.

Lemma gather_upd {A} (f : tid -> list A) L t x : NoDup L -> In t L ->
  exists rest, Permutation (gather f L) (f t ++ rest) /\ Permutation (gather (upd f t x) L) (x ++ rest).
Proof.
  induction L as [|a L IH]; intros ND Hin; [contradiction|].
  inversion ND as [|? ? Hna ND']; subst. unfold gather. cbn [flat_map]. fold (gather f L). fold (gather (upd f t x) L).
  destruct Hin as [->|Hin].
  - exists (gather f L). rewrite upd_same, gather_upd_notin by assumption. split; apply Permutation_refl.
  - rewrite upd_other by (intros ->; contradiction).
    destruct (IH ND' Hin) as (rest & P1 & P2).
    exists (f a ++ rest). split; apply perm_under; assumption.
Qed.

Lemma gather_nil {A} (f : tid -> list A) L : (forall t, In t L -> f t = []) -> gather f L = [].
Proof.
  intros H. rewrite (gather_ext f (fun _ => []) L H). clear H.
  induction L as [|a L IH]; [reflexivity|exact IH].
Qed.

Lemma gather_in {A} (f : tid -> list A) L x : In x (gather f L) <-> exists t, In t L /\ In x (f t).
Proof. apply in_flat_map. Qed.

(** The checkers test intervals with booleans; the lemmas below reason about the tests as propositions
    ([iv_disj_iff], [disj_from_forall], [iv_within_forall], [all_above_forall]) and leave the arithmetic to
    [lia]. *)

Lemma zero_or_le c x y : (c =? 0) || (x <=? y) = true <-> c = 0 \/ x <= y.
Proof. rewrite orb_true_iff, N.eqb_eq, N.leb_le. reflexivity. Qed.

Lemma forallb_perm {A} (f : A -> bool) l1 l2 : Permutation l1 l2 -> forallb f l1 = forallb f l2.
Proof.
  induction 1 as [|x l l' _ IH|x y l|l l' l'' _ IH1 _ IH2]; cbn [forallb]; [reflexivity| |destruct (f x), (f y); reflexivity|].
  - rewrite IH. reflexivity.
  - rewrite IH1. exact IH2.
Qed.

Lemma forallb_rev {A} (f : A -> bool) l : forallb f (rev l) = forallb f l.
Proof. apply forallb_perm. symmetry. apply Permutation_rev. Qed.

Lemma iv_disj_iff a b : iv_disj a b = true <-> snd a = 0 \/ snd b = 0 \/ iv_hi a <= fst b \/ iv_hi b <= fst a.
Proof. unfold iv_disj. rewrite !orb_true_iff, !N.eqb_eq, !N.leb_le. tauto. Qed.

Lemma iv_disj_sym a b : iv_disj a b = iv_disj b a.
Proof. apply eq_iff_eq_true. rewrite !iv_disj_iff. tauto. Qed.

Lemma disj_from_forallb a l : disj_from a l = forallb (iv_disj a) l.
Proof. induction l as [|b l IH]; cbn [disj_from forallb]; [reflexivity|]. rewrite IH. reflexivity. Qed.

Lemma disj_from_app a l1 l2 : disj_from a (l1 ++ l2) = disj_from a l1 && disj_from a l2.
Proof. rewrite !disj_from_forallb. apply forallb_app. Qed.

Lemma disj_from_forall a l : disj_from a l = true <-> forall b, In b l -> iv_disj a b = true.
Proof. rewrite disj_from_forallb. apply forallb_forall. Qed.

Lemma disj_from_perm a l1 l2 : Permutation l1 l2 -> disj_from a l1 = disj_from a l2.
Proof. rewrite !disj_from_forallb. apply forallb_perm. Qed.

Lemma pairwise_disj_cons a l : pairwise_disj (a :: l) = disj_from a l && pairwise_disj l.
Proof. reflexivity. Qed.

Lemma pairwise_disj_app l1 l2 :
  pairwise_disj (l1 ++ l2) = pairwise_disj l1 && pairwise_disj l2 && forallb (fun a => disj_from a l2) l1.
Proof.
  induction l1 as [|a l1 IH]; cbn [app pairwise_disj forallb].
  - now rewrite andb_true_r.
  - rewrite IH, disj_from_app.
    destruct (disj_from a l1), (disj_from a l2), (pairwise_disj l1), (pairwise_disj l2); reflexivity.
Qed.

Lemma pairwise_disj_perm l1 l2 : Permutation l1 l2 -> pairwise_disj l1 = pairwise_disj l2.
Proof.
  induction 1 as [|x l l' P IH|x y l|l l' l'' _ IH1 _ IH2]; cbn [pairwise_disj disj_from].
  - reflexivity.
  - rewrite IH, (disj_from_perm x l l' P). reflexivity.
  - rewrite (iv_disj_sym y x). destruct (iv_disj x y), (disj_from y l), (disj_from x l); reflexivity.
  - rewrite IH1. exact IH2.
Qed.

Lemma iv_total_app l1 l2 : iv_total (l1 ++ l2) = iv_total l1 + iv_total l2.
Proof. induction l1 as [|a l1 IH]; cbn [app iv_total]; [reflexivity|]. rewrite IH. apply N.add_assoc. Qed.

Lemma iv_total_perm l1 l2 : Permutation l1 l2 -> iv_total l1 = iv_total l2.
Proof.
  induction 1 as [|x l l' _ IH|x y l|l l' l'' _ IH1 _ IH2]; cbn [iv_total]; [reflexivity| | |].
  - rewrite IH. reflexivity.
  - apply N.add_shuffle3.
  - rewrite IH1. exact IH2.
Qed.

Lemma iv_within_app n l1 l2 : iv_within n (l1 ++ l2) = iv_within n l1 && iv_within n l2.
Proof. apply forallb_app. Qed.

Lemma iv_within_perm n l1 l2 : Permutation l1 l2 -> iv_within n l1 = iv_within n l2.
Proof. apply forallb_perm. Qed.

Lemma iv_within_forall n l : iv_within n l = true <-> forall a, In a l -> snd a = 0 \/ iv_hi a <= n.
Proof. unfold iv_within. rewrite forallb_forall. split; intros H a Ha; apply zero_or_le, H, Ha. Qed.

Lemma in_within n l a : iv_within n l = true -> In a l -> snd a = 0 \/ iv_hi a <= n.
Proof. intros H. apply iv_within_forall, H. Qed.

Lemma iv_within_maxhi n l : iv_within n l = true <-> iv_maxhi l <= n.
Proof.
  unfold iv_within. induction l as [|a l IH]; cbn [forallb iv_maxhi].
  - split; [lia|reflexivity].
  - rewrite andb_true_iff, IH, zero_or_le. destruct (N.eqb_spec (snd a) 0); lia.
Qed.

Lemma iv_within_mono n m l : n <= m -> iv_within n l = true -> iv_within m l = true.
Proof. rewrite !iv_within_maxhi. lia. Qed.

Lemma iv_maxhi_within l l' : (forall m, iv_within m l = iv_within m l') -> iv_maxhi l = iv_maxhi l'.
Proof.
  intros E. apply N.le_antisymm; apply iv_within_maxhi; [rewrite E|rewrite <- E]; apply iv_within_maxhi, N.le_refl.
Qed.

Lemma iv_maxhi_app l1 l2 : iv_maxhi (l1 ++ l2) = N.max (iv_maxhi l1) (iv_maxhi l2).
Proof.
  induction l1 as [|a l1 IH]; cbn [app iv_maxhi]; [lia|]. rewrite IH. destruct (snd a =? 0); lia.
Qed.

Lemma iv_maxhi_perm l1 l2 : Permutation l1 l2 -> iv_maxhi l1 = iv_maxhi l2.
Proof. intros P. apply iv_maxhi_within. intros m. apply iv_within_perm, P. Qed.

Lemma disj_from_above n a l : iv_within n l = true -> n <= fst a -> disj_from a l = true.
Proof.
  intros Hw Ha. apply disj_from_forall. intros b Hb. apply iv_disj_iff.
  pose proof (in_within n l b Hw Hb). lia.
Qed.

Lemma all_above_app f l1 l2 : all_above f (l1 ++ l2) = all_above f l1 && all_above f l2.
Proof. apply forallb_app. Qed.

Lemma all_above_forall f l : all_above f l = true <-> forall a, In a l -> snd a = 0 \/ f <= fst a.
Proof. unfold all_above. rewrite forallb_forall. split; intros H a Ha; apply zero_or_le, H, Ha. Qed.

Lemma all_above_mono f g l : g <= f -> all_above f l = true -> all_above g l = true.
Proof. intros Hfg. rewrite !all_above_forall. intros H a Ha. specialize (H a Ha). lia. Qed.

Lemma all_above_perm f l1 l2 : Permutation l1 l2 -> all_above f l1 = all_above f l2.
Proof. apply forallb_perm. Qed.

Lemma all_above_rev f l : all_above f (rev l) = all_above f l.
Proof. apply all_above_perm. apply Permutation_sym, Permutation_rev. Qed.

(** the intervals [h] lie in [0, n) and are pairwise disjoint; while the history is [clean] (no skip_to_end, no
    panic so far) they also fill it: total and top are [n] *)

Record tiling (clean : bool) (n : N) (h : list iv) : Prop := {
  tl_disj   : pairwise_disj h = true;
  tl_within : iv_within n h = true;
  tl_total  : clean = true -> iv_total h = n;
  tl_maxhi  : clean = true -> iv_maxhi h = n
}.

(** a tiling looks at its intervals through three functions only ([iv_maxhi] is determined by [iv_within]) *)
Lemma tiling_congr cl n h h' :
  pairwise_disj h = pairwise_disj h' -> (forall m, iv_within m h = iv_within m h') -> iv_total h = iv_total h' ->
  tiling cl n h <-> tiling cl n h'.
Proof.
  intros E1 E2 E3. pose proof (iv_maxhi_within h h' E2) as E4.
  split; intros [H1 H2 H3 H4]; split;
    [rewrite <- E1|rewrite <- E2|rewrite <- E3|rewrite <- E4|rewrite E1|rewrite E2|rewrite E3|rewrite E4]; assumption.
Qed.

Lemma tiling_perm cl n h h' : Permutation h h' -> tiling cl n h -> tiling cl n h'.
Proof.
  intros P. apply (tiling_congr cl n h h'); [apply pairwise_disj_perm|intros m; apply iv_within_perm|apply iv_total_perm]; exact P.
Qed.

Lemma tiling_empty_iv cl n a h : snd a = 0 -> (tiling cl n (a :: h) <-> tiling cl n h).
Proof.
  intros Hz. apply tiling_congr.
  - cbn [pairwise_disj]. replace (disj_from a h) with true; [reflexivity|].
    symmetry. apply disj_from_forall. intros b _. apply iv_disj_iff. left. exact Hz.
  - intros m. unfold iv_within. cbn [forallb]. rewrite Hz. reflexivity.
  - cbn [iv_total]. rewrite Hz. reflexivity.
Qed.

Lemma iv_disj_cut a x y b : iv_disj (a, x + y) b = iv_disj (a, x) b && iv_disj (a + x, y) b.
Proof. apply eq_iff_eq_true. rewrite andb_true_iff, !iv_disj_iff. unfold iv_hi. cbn [fst snd]. lia. Qed.

Lemma disj_from_cut a x y h : disj_from (a, x + y) h = disj_from (a, x) h && disj_from (a + x, y) h.
Proof.
  induction h as [|b h IH]; cbn [disj_from]; [reflexivity|]. rewrite IH, iv_disj_cut.
  destruct (iv_disj (a, x) b), (iv_disj (a + x, y) b), (disj_from (a, x) h); reflexivity.
Qed.

Lemma tiling_cut cl n a x y h : tiling cl n ((a, x + y) :: h) <-> tiling cl n ((a, x) :: (a + x, y) :: h).
Proof.
  apply tiling_congr.
  - cbn [pairwise_disj disj_from]. rewrite disj_from_cut.
    replace (iv_disj (a, x) (a + x, y)) with true; [cbn [andb]; symmetry; apply andb_assoc|].
    symmetry. apply iv_disj_iff. right. right. left. apply N.le_refl.
  - intros m. unfold iv_within. cbn [forallb]. rewrite andb_assoc. f_equal.
    apply eq_iff_eq_true. rewrite andb_true_iff, !zero_or_le. unfold iv_hi. cbn [fst snd]. lia.
  - cbn [iv_total snd]. symmetry. apply N.add_assoc.
Qed.

Lemma tiling_extend cl n h cnt : tiling cl n h -> tiling cl (n + cnt) ((n, cnt) :: h).
Proof.
  intros [H1 H2 H3 H4]. split.
  - cbn [pairwise_disj]. rewrite H1, andb_true_r. apply disj_from_above with n; [assumption|apply N.le_refl].
  - unfold iv_within. cbn [forallb]. apply andb_true_iff. split.
    + apply zero_or_le. right. apply N.le_refl.
    + apply iv_within_mono with n; [lia|assumption].
  - intros C. cbn [iv_total snd]. rewrite (H3 C). apply N.add_comm.
  - intros C. cbn [iv_maxhi]. unfold iv_hi. cbn [fst snd]. rewrite (H4 C). destruct (N.eqb_spec cnt 0); lia.
Qed.

(** the frontier can jump (skip_to_end) once the history is not clean any more *)
Lemma tiling_jump n m h : n <= m -> tiling false n h -> tiling false m h.
Proof.
  intros Hnm [H1 H2 _ _]. split; try discriminate; [assumption|].
  apply iv_within_mono with n; assumption.
Qed.

Lemma tiling_unclean cl n h : tiling cl n h -> tiling false n h.
Proof. intros [H1 H2 _ _]. split; try discriminate; assumption. Qed.

Lemma tiling_weaken cl cl' n h : (cl' = true -> cl = true) -> tiling cl n h -> tiling cl' n h.
Proof. intros Hc [H1 H2 H3 H4]. split; auto. Qed.

Lemma tiling_empty cl : tiling cl 0 [].
Proof. split; reflexivity. Qed.

Lemma tiling_drop_head n a h : tiling false n (a :: h) -> tiling false n h.
Proof.
  intros [H1 H2 _ _]. apply andb_true_iff in H1, H2. split; try discriminate; [apply H1|apply H2].
Qed.

Lemma tiling_grow0 cl n lo k h :
  tiling cl n ((lo, k) :: h) -> lo + k = n -> tiling cl (n + 1) ((lo, k + 1) :: h).
Proof.
  intros T <-. apply tiling_cut. apply tiling_perm with ((lo + k, 1) :: (lo, k) :: h); [apply perm_swap|].
  apply tiling_extend, T.
Qed.

Lemma below_top cl n lo k h :
  tiling cl n ((lo, k) :: h) -> lo + k = n -> iv_maxhi h <= lo.
Proof.
  intros [Hd Hw _ _] E. apply andb_true_iff in Hd, Hw. destruct Hd as [Hd _], Hw as [_ Hw].
  apply iv_within_maxhi, iv_within_forall. intros b Hb.
  pose proof (in_within n h b Hw Hb). pose proof (proj1 (disj_from_forall _ _) Hd b Hb) as D.
  apply iv_disj_iff in D. unfold iv_hi in *. cbn [fst snd] in D. lia.
Qed.

(** an interval of the tiling is replaced by the two pieces a chunk result reports *)
Lemma tiling_split_form cl n b k took rest :
  took <= k -> tiling cl n ((b, k) :: rest) ->
  tiling cl n (((if took =? 0 then [] else [(b, took)]) ++ [(b + took, k - took)]) ++ rest).
Proof.
  intros Ht T. replace k with (took + (k - took)) in T by lia. apply tiling_cut in T.
  destruct (N.eqb_spec took 0) as [->|Hz]; [|exact T].
  apply (tiling_empty_iv cl n (b, 0) _ eq_refl). exact T.
Qed.

Lemma tiling_extend_split cl n h cnt took :
  took <= cnt -> tiling cl n h ->
  tiling cl (n + cnt) (((if took =? 0 then [] else [(n, took)]) ++ [(n + took, cnt - took)]) ++ h).
Proof. intros Ht T. apply tiling_split_form; [exact Ht|]. apply tiling_extend, T. Qed.

(** the ledger split of a chunk: what the caller took, and what was destroyed when it dropped the rest *)
Definition led_split (b took cnt : N) : list iv :=
  (if took =? 0 then [] else [(b, took)]) ++ (if 0 <? cnt - took then [(b + took, cnt - took)] else []).

Lemma tiling_extend_led n h cnt took :
  took <= cnt -> tiling true n h -> tiling true (n + cnt) (led_split n took cnt ++ h).
Proof.
  intros Ht T. unfold led_split. destruct (N.ltb_spec 0 (cnt - took)) as [Hp|Hp].
  - apply tiling_extend_split; assumption.
  - assert (took = cnt) as -> by lia. destruct (N.eqb_spec cnt 0) as [->|Hz]; cbn [app].
    + rewrite N.add_0_r. exact T.
    + apply tiling_extend. exact T.
Qed.

Lemma increasing_snoc l a : increasing l = true -> iv_maxhi l <= fst a -> increasing (l ++ [a]) = true.
Proof.
  induction l as [|b l IH]; cbn [app increasing iv_maxhi]; intros H Hm; [reflexivity|].
  apply andb_true_iff in H. destruct H as [H1 H2]. apply andb_true_iff. split.
  - rewrite all_above_app, H1. apply all_above_forall. intros x [<-|[]]. right.
    destruct (N.eqb_spec (snd b) 0); lia.
  - apply IH; [assumption|]. destruct (snd b =? 0); lia.
Qed.

Lemma increasing_single a : increasing [a] = true.
Proof. reflexivity. Qed.

Lemma increasing_split b took cnt :
  increasing ((if took =? 0 then [] else [(b, took)]) ++ [(b + took, cnt - took)]) = true.
Proof.
  destruct (N.eqb_spec took 0) as [|Hz]; [reflexivity|].
  apply (increasing_snoc [(b, took)]); [reflexivity|]. cbn [iv_maxhi snd]. destruct (N.eqb_spec took 0); [contradiction|].
  apply N.max_lub; [apply N.le_refl|apply N.le_0_l].
Qed.

Lemma all_above_split f b took cnt :
  f <= b -> all_above f ((if took =? 0 then [] else [(b, took)]) ++ [(b + took, cnt - took)]) = true.
Proof.
  intros H. apply all_above_forall. intros a Ha. right.
  destruct (took =? 0); cbn [app In] in Ha; destruct Ha as [<-|[<-|[]]] || destruct Ha as [<-|[]]; cbn [fst]; lia.
Qed.

Lemma iv_total_split b took cnt :
  took <= cnt -> iv_total ((if took =? 0 then [] else [(b, took)]) ++ [(b + took, cnt - took)]) = cnt.
Proof. destruct (N.eqb_spec took 0); cbn [app iv_total snd]; lia. Qed.

Lemma iv_maxhi_split b took cnt :
  took <= cnt -> 1 <= cnt -> iv_maxhi ((if took =? 0 then [] else [(b, took)]) ++ [(b + took, cnt - took)]) = b + cnt.
Proof.
  intros H1 H2. destruct (N.eqb_spec took 0) as [->|Hz]; cbn [app iv_maxhi snd]; unfold iv_hi; cbn [fst snd].
  - destruct (N.eqb_spec (cnt - 0) 0); lia.
  - destruct (N.eqb_spec took 0); [contradiction|]. destruct (N.eqb_spec (cnt - took) 0); lia.
Qed.

Lemma pos_of_val_of e b : pos_of e (val_of e b) = b.
Proof. unfold pos_of, val_of. destruct (e_kind e); lia. Qed.

Lemma run_idx_ok_intro e r :
  (r_cnt r <> 0 ->
   exists b, r_val r = val_of e b /\ b + r_cnt r <= e_len e /\ match r_idx r with Some i => i = b | None => True end) ->
  run_idx_ok e r = true.
Proof.
  intros H. unfold run_idx_ok. destruct (N.eqb_spec (r_cnt r) 0) as [Hz|Hz]; [reflexivity|]. cbn [orb]. cbv zeta.
  destruct (H Hz) as (b & Hv & Hb & Hi).
  assert (match r_idx r with Some i => i | None => pos_of e (r_val r) end = b) as ->.
  { destruct (r_idx r) as [i|]; [exact Hi|]. rewrite Hv. apply pos_of_val_of. }
  apply andb_true_iff. split; [apply N.eqb_eq; exact Hv|apply N.leb_le; exact Hb].
Qed.

Lemma run_idx_ok_elim e r : run_idx_ok e r = true -> r_cnt r <> 0 ->
  exists b, r_val r = val_of e b /\ b + r_cnt r <= e_len e /\ match r_idx r with Some i => i = b | None => True end.
Proof.
  unfold run_idx_ok. intros H Hz. destruct (N.eqb_spec (r_cnt r) 0) as [Hz'|_]; [contradiction|]. cbn [orb] in H. cbv zeta in H.
  apply andb_true_iff in H. destruct H as [Hv Hb]. apply N.eqb_eq in Hv. apply N.leb_le in Hb.
  exists (match r_idx r with Some i => i | None => pos_of e (r_val r) end). split; [exact Hv|]. split; [exact Hb|].
  destruct (r_idx r); [reflexivity|exact I].
Qed.

Lemma run_idx_ok_at e oi b c :
  match oi with Some i => i = b | None => True end -> (c <> 0 -> b + c <= e_len e) ->
  run_idx_ok e (mk_run oi (val_of e b) c) = true.
Proof.
  intros Hi Hb. apply run_idx_ok_intro. cbn [mk_run r_cnt r_val r_idx]. intros Hz. exists b. repeat split; [apply Hb, Hz|exact Hi].
Qed.

Lemma run_idx_ok_strip e r : run_idx_ok e r = true -> run_idx_ok e (strip_idx r) = true.
Proof.
  intros H. apply run_idx_ok_intro. cbn [strip_idx mk_run r_cnt r_val r_idx]. intros Hz.
  destruct (run_idx_ok_elim e r H Hz) as (b & Hv & Hb & _). exists b. repeat split; assumption.
Qed.

Lemma run_iv_strip e r : run_iv e (strip_idx r) = run_iv e r.
Proof. reflexivity. Qed.

Lemma run_idx_ok_shorter e r k : run_idx_ok e r = true -> k <= r_cnt r ->
  run_idx_ok e (mk_run (r_idx r) (r_val r) k) = true.
Proof.
  intros H Hk. apply run_idx_ok_intro. cbn [mk_run r_cnt r_val r_idx]. intros Hz.
  destruct (run_idx_ok_elim e r H) as (b & Hv & Hb & Hi); [lia|]. exists b. repeat split; [exact Hv|lia|exact Hi].
Qed.

Lemma runs_take_idx_ok e k rs : forallb (run_idx_ok e) rs = true -> forallb (run_idx_ok e) (runs_take k rs) = true.
Proof.
  revert k. induction rs as [|r rs IH]; intros k H; cbn [runs_take]; [reflexivity|].
  cbn [forallb] in H. apply andb_true_iff in H. destruct H as [Hr Hrs].
  destruct (k =? 0); [reflexivity|]. destruct (N.leb_spec (r_cnt r) k) as [Hle|Hlt]; cbn [forallb].
  - rewrite Hr, (IH _ Hrs). reflexivity.
  - rewrite (run_idx_ok_shorter e r k Hr) by lia. reflexivity.
Qed.

Lemma idx_ok_one e b c : (c <> 0 -> b + c <= e_len e) -> forallb (run_idx_ok e) [mk_run (Some b) (val_of e b) c] = true.
Proof. intros H. cbn [forallb]. rewrite run_idx_ok_at; [reflexivity|reflexivity|exact H]. Qed.
