(** * The wrapper over an arbitrary iterator: every use of the wrapped iterator happens-after the
      previous one (layer H, on top of layer A).

    The happens-before relation is the one of [Checkers.hb_step]: vector clocks computed over the label
    stream from the orderings that the source declares ([gen/Orderings.v], regenerated from the source
    on every run).  The proof obligation about the source is [sufficient = true]: the reads of the
    yielded counter are acquire reads and its read-modify-writes are release writes.

    Both checkers of C07 look only at the label of a step and at what the step does to the ticket
    protocol; [move] lists the steps from that point of view and [istep_moves] is the one case analysis
    of [step] behind layer H and behind the mutual-exclusion scan (second half of this file). *)
From Coq Require Import Lia ZArith.
From OCI Require Import Machine Checkers.
From OCI.proofs Require Import Base Trace ArithOk InvKnown ChkKnown IterBase IterProt InvIterA ChkIter IterFair.
Open Scope N_scope.

(** what the protocol needs of the declared orderings *)
Definition sufficient : bool :=
  is_acq ord_yielded_read_get && is_acq ord_yielded_read_progress &&
  is_rel ord_yielded_publish_single && is_rel ord_yielded_publish_chunk.

Lemma sufficient_now : sufficient = true.
Proof. reflexivity. Qed.

Lemma suff_orderings q : is_acq (o_ldy q) = true /\ is_rel (o_pub q) = true.
Proof.
  pose proof sufficient_now as H. unfold sufficient in H. rewrite !andb_true_iff in H.
  unfold o_ldy, o_pub. destruct (single q); tauto.
Qed.

(** the thread has found its ticket at the yielded counter and has neither stored nor published since *)
Definition at_src (p : pc) : bool := match p with PChkT _ _ | PSrc _ _ _ => true | _ => false end.

Lemma at_src_crit p : at_src p = true -> in_crit p = true.
Proof. destruct p; try discriminate; reflexivity. Qed.

(** One step of thread [t] from the program counter [p] with the shared state [sh]: the new shared state,
    the new state of the thread and the label.  Outside the critical section: a call, the reservation of
    a ticket at the reserved counter, a load that is not the one that finds the ticket at the yielded
    counter.  That load: the thread enters.  A load or store of the completed flag, on either side: the
    thread keeps its ticket and its side, or ends its pull without publishing (a thread inside gives up
    the ticket at the yielded counter for good).  Inside: a use of the wrapped iterator; the add to the
    yielded counter that publishes and leaves. *)
Inductive move (t : tid) (sh : shared) (p : pc) : shared -> tstate -> label -> Prop :=
| mv_call ts' (Ct : in_crit p = false) (Ct' : in_crit (t_pc ts') = false) (Tt' : ticket (t_pc ts') = None) :
    move t sh p sh ts' (LCall t)
| mv_reserve sh' ts' n o (Ct : in_crit p = false) (Ct' : in_crit (t_pc ts') = false)
    (Tt' : ticket (t_pc ts') = Some (s_c sh, n)) (Ey : s_y sh' = s_y sh) (Ec : s_c sh <= s_c sh') :
    move t sh p sh' ts' (LAtom t SC AAdd n (s_c sh) o)
| mv_load ts' s a r o (Ct : in_crit p = false) (Ct' : in_crit (t_pc ts') = false)
    (Tt' : ticket (t_pc ts') = ticket p \/ ticket (t_pc ts') = None)
    (Hs : s = SY -> exists b n, ticket p = Some (b, n) /\ b <> r) :
    move t sh p sh ts' (LAtom t s ALoad a r o)
| mv_enter ts' q (Ep : p = PLdY q (s_y sh)) (Ep' : t_pc ts' = PChkT q (s_y sh)) :
    move t sh p sh ts' (LAtom t SY ALoad 0 (s_y sh) (o_ldy q))
| mv_flag_keep sh' ts' k a r o (Ec : s_c sh' = s_c sh) (Ey : s_y sh' = s_y sh)
    (Ecr : in_crit (t_pc ts') = in_crit p) (Tt' : ticket (t_pc ts') = ticket p)
    (Hs : at_src (t_pc ts') = true -> at_src p = true /\ k = ALoad) :
    move t sh p sh' ts' (LAtom t SF k a r o)
| mv_flag_drop sh' ts' k a r o (Ec : s_c sh' = s_c sh) (Ey : s_y sh' = s_y sh)
    (Ct' : in_crit (t_pc ts') = false) (Tt' : ticket (t_pc ts') = None) :
    move t sh p sh' ts' (LAtom t SF k a r o)
| mv_access sh' ts' l (Hs : at_src p = true) (Ct' : in_crit (t_pc ts') = true) (Tt' : ticket (t_pc ts') = ticket p)
    (Hl : l = LSrcPanic t \/ (exists r, l = LSrc t r)) :
    move t sh p sh' ts' l
| mv_publish sh' ts' q a r (Ct : in_crit p = true) (Ct' : in_crit (t_pc ts') = false) (Tt' : ticket (t_pc ts') = None) :
    move t sh p sh' ts' (LAtom t SY AAdd a r (o_pub q)).

Lemma move_outside t sh p sh' ts' l :
  move t sh p sh' ts' l -> in_crit p = false ->
  s_y sh' = s_y sh /\ s_c sh <= s_c sh' /\
  forall b n, ticket (t_pc ts') = Some (b, n) -> ticket p = Some (b, n) \/ b = s_c sh.
Proof.
  intros M Cp. destruct M; try (apply at_src_crit in Hs); try congruence; (split; [congruence|split; [lia|]]); intros b' n' E.
  - congruence.
  - right. congruence.
  - destruct Tt' as [Tt'|Tt']; [left|]; congruence.
  - left. rewrite Ep' in E. rewrite Ep. exact E.
  - left. congruence.
  - congruence.
Qed.

Lemma hb_run_cons l ls : hb_run (l :: ls) = hb_step (hb_run ls) l.
Proof. unfold hb_run. cbn [rev]. rewrite fold_left_app. reflexivity. Qed.

Definition covered (v : vclock) (cell : option (tid * N)) : Prop :=
  match cell with None => True | Some (u, k) => k <= v u end.

Lemma covered_mono v v' cell : (forall u, v u <= v' u) -> covered v cell -> covered v' cell.
Proof. intros H. destruct cell as [[u k]|]; cbn; [specialize (H u); lia|auto]. Qed.

Lemma set_vc_same f t v : set_vc f t v t = v.
Proof. unfold set_vc. now rewrite Nat.eqb_refl. Qed.
Lemma set_vc_other f t v u : u <> t -> set_vc f t v u = f u.
Proof. unfold set_vc. intros H. destruct (Nat.eqb_spec u t); congruence. Qed.

Definition grows_only (h h' : hbst) (t : tid) : Prop :=
  h_ok h' = h_ok h /\ h_cell h' = h_cell h /\ h_rel h' SY = h_rel h SY /\
  (forall u, u <> t -> h_vc h' u = h_vc h u) /\ (forall u, h_vc h t u <= h_vc h' t u).

Lemma grows_call h t : grows_only h (hb_step h (LCall t)) t.
Proof. repeat split; reflexivity. Qed.

Lemma grows_atom h t s k a r o : s <> SY \/ k = ALoad -> grows_only h (hb_step h (LAtom t s k a r o)) t.
Proof.
  intros Hs.
  assert (Hr : forall v, k <> ALoad -> set_rel (h_rel h) s v SY = h_rel h SY).
  { intros v Hk0. destruct Hs as [Hs|Hs]; [|contradiction]. destruct s; try reflexivity. contradiction. }
  assert (Hv : forall u, h_vc h t u <= (if is_acq o then vc_join (h_vc h t) (h_rel h s) else h_vc h t) u).
  { intros u. destruct (is_acq o); unfold vc_join; lia. }
  unfold grows_only. destruct k; cbn [hb_step h_ok h_cell h_rel h_vc]; rewrite ?Hr by discriminate.
  - repeat split; [intros u Hu; apply set_vc_other; exact Hu|].
    intros u. rewrite set_vc_same. apply Hv.
  - repeat split; reflexivity.
  - repeat split; [intros u Hu; apply set_vc_other; exact Hu|].
    intros u. rewrite set_vc_same. apply Hv.
Qed.

(** the ticket at the yielded counter was given up: nobody will ever be served again *)
Definition dead (c : cfg) : Prop :=
  s_y (c_sh c) < s_c (c_sh c) /\ forall t b n, ticket (t_pc (c_pool c t)) = Some (b, n) -> b <> s_y (c_sh c).

(** ** the invariant: the cell of the wrapped iterator is covered by the clock of whoever may use it next *)

Record HInv (c : cfg) (h : hbst) : Prop := {
  h_fine : h_ok h = true;
  h_crit : forall t, in_crit (t_pc (c_pool c t)) = true -> covered (h_vc h t) (h_cell h);
  h_open : (forall t, in_crit (t_pc (c_pool c t)) = false) -> covered (h_rel h SY) (h_cell h) \/ dead c
}.

Definition IInvH (c : cfg) : Prop := HInv c (hb_run (c_labels c)).

Section IterH.

Variable e : env.
Hypothesis Hk : e_kind e = KIter.
Variable L : list tid.

Lemma finish_form c t sh ts l q pr :
  exists ts' evs, finish e c t sh ts l q pr = commit c t sh ts' l evs /\
                  in_crit (t_pc ts') = false /\ ticket (t_pc ts') = None.
Proof.
  unfold finish. pose proof (deliver_idle e ts q pr) as Hd.
  destruct (deliver e ts q pr) as [ts' o]. cbn [fst snd] in Hd. exists ts', (ret_ev t o). split; [reflexivity|].
  rewrite Hd. destruct o; split; reflexivity.
Qed.

Lemma istep_moves (P : cfg -> Prop) c t :
  IInvA e L c -> istep_nowrap c t -> P c ->
  (forall sh' ts' l evs, move t (c_sh c) (t_pc (c_pool c t)) sh' ts' l -> P (commit c t sh' ts' l evs)) ->
  P (step e c t).
Proof.
  intros A Hw H0 HP. unfold istep_nowrap in Hw.
  assert (HF : forall sh' l q pr,
            (forall ts', in_crit (t_pc ts') = false -> ticket (t_pc ts') = None ->
                         move t (c_sh c) (t_pc (c_pool c t)) sh' ts' l) ->
            P (finish e c t sh' (c_pool c t) l q pr)).
  { intros sh' l q pr Hm. destruct (finish_form c t sh' (c_pool c t) l q pr) as (ts' & evs & -> & Ct' & Tt').
    apply HP, Hm; assumption. }
  revert HP HF. unfold step. rewrite Hk.
  destruct (t_pc (c_pool c t)) as [|q|q b|q b|q b|q b got|q b got|q b got|q b got| |hm|hm]; intros HP HF.
  - destruct (t_todo (c_pool c t)) as [|o rest] eqn:Htodo; [exact H0|]. unfold call.
    destruct (a_wf e L c A t) as (_ & Hops & Hbuf). rewrite Htodo in Hops.
    destruct (call_res e (c_pool c t) o) as [p|bf r d] eqn:E; apply HP, mv_call; try reflexivity;
      apply (call_go_iter e Hk _ _ _ E (Forall_inv Hops) Hbuf).
  - apply HP, mv_reserve; try reflexivity.
    cbn [with_c s_c]. unfold wadd. rewrite N.mod_small by exact Hw. lia.
  - destruct (s_f (c_sh c)).
    + apply HF. intros ts' Ct' Tt'. apply mv_flag_drop; auto.
    + apply HP, mv_flag_keep; try reflexivity. discriminate.
  - destruct (N.eqb_spec b (s_y (c_sh c))) as [->|Nb]; [apply HP, mv_enter; reflexivity|].
    assert (Hb : SY = SY -> exists b0 n, ticket (PLdY q b) = Some (b0, n) /\ b0 <> s_y (c_sh c))
      by (intros _; exists b, (pub_incr q); split; [reflexivity|exact Nb]).
    destruct (b <? s_y (c_sh c)).
    + apply HF. intros ts' Ct' Tt'. apply mv_load; auto.
    + apply HP, mv_load; auto.
  - destruct (s_f (c_sh c)).
    + apply HF. intros ts' Ct' Tt'. apply mv_flag_drop; auto.
    + apply HP, mv_flag_keep; try reflexivity. intros _. split; reflexivity.
  - destruct (crashes_now e (c_sh c));
        [|destruct (q_mode q), (src_next e (c_sh c)) as [xv|]; try destruct (N.of_nat (length (xv :: got)) =? q_n q)];
      apply HP, mv_access; eauto.
  - destruct (q_mode q).
    + apply HF. intros ts' Ct' Tt'. apply mv_flag_drop; auto.
    + apply HP, mv_flag_keep; try reflexivity. discriminate.
    + apply HP, mv_flag_keep; try reflexivity. discriminate.
  - destruct (q_mode q); [|destruct (s_y (c_sh c) =? b); [destruct (rev got)|]..];
      apply HF; intros ts' Ct' Tt'; apply mv_publish; auto.
  - destruct (q_ctx q); [destruct (q_mode q); [| |destruct (t_buf (c_pool c t)); [destruct (write_slots _ _)|]]|];
      apply HP, mv_flag_drop; reflexivity.
  - apply HP, mv_flag_drop; reflexivity.
  - destruct (s_f (c_sh c)); [|destruct (e_hint e)]; apply HP, mv_flag_drop; reflexivity.
  - apply HP, mv_load; auto. discriminate.
Qed.

Lemma crit_ticket c t : IInvA e L c -> in_crit (t_pc (c_pool c t)) = true ->
  s_y (c_sh c) < s_c (c_sh c) /\ (exists n, ticket (t_pc (c_pool c t)) = Some (s_y (c_sh c), n)) /\
  forall u b m, ticket (t_pc (c_pool c u)) = Some (b, m) -> b = s_y (c_sh c) -> u = t.
Proof.
  intros A Ct. pose proof (a_prot e L c A) as P. destruct (prot_inside _ _ _ _ _ _ P Ct) as (n & Tt).
  pose proof (p_tk _ _ _ _ _ P t _ _ Tt). split; [lia|]. split; [eauto|].
  intros u b' m Tu ->. destruct (Nat.eq_dec u t) as [|Hne]; [assumption|exfalso].
  pose proof (p_tk _ _ _ _ _ P u _ _ Tu). pose proof (p_disj _ _ _ _ _ P u t _ _ _ _ Hne Tu Tt). lia.
Qed.

Lemma others_not_crit c t : IInvA e L c -> in_crit (t_pc (c_pool c t)) = true ->
  forall u, u <> t -> in_crit (t_pc (c_pool c u)) = false.
Proof. intros A. exact (prot_alone _ _ _ _ _ _ (a_prot e L c A)). Qed.

Lemma at_turn c t n : IInvA e L c ->
  ticket (t_pc (c_pool c t)) = Some (s_y (c_sh c), n) -> in_crit (t_pc (c_pool c t)) = false ->
  (forall u, in_crit (t_pc (c_pool c u)) = false) /\ ~ dead c.
Proof.
  intros A Tt Ct. split.
  - intros u. destruct (in_crit (t_pc (c_pool c u))) eqn:Cu; [|reflexivity].
    destruct (crit_ticket c u A Cu) as (_ & _ & Hu). rewrite <- (Hu t _ _ Tt eq_refl), Ct in Cu. discriminate.
  - intros [_ D2]. apply (D2 t _ _ Tt). reflexivity.
Qed.

Lemma dead_nocrit c t : IInvA e L c -> dead c -> in_crit (t_pc (c_pool c t)) = false.
Proof.
  intros A [_ D2]. destruct (in_crit (t_pc (c_pool c t))) eqn:Ct; [exfalso|reflexivity].
  destruct (crit_ticket c t A Ct) as (_ & (n & Tt) & _). apply (D2 t _ _ Tt). reflexivity.
Qed.

Section Commit.

Variables (c : cfg) (t : tid) (sh' : shared) (ts' : tstate) (l : label) (evs : list event).
Let c' := commit c t sh' ts' l evs.
Let p := t_pc (c_pool c t).
Let p' := t_pc ts'.
Hypothesis A : IInvA e L c.

Lemma dead_keep :
  s_y sh' = s_y (c_sh c) -> s_c (c_sh c) <= s_c sh' ->
  (forall b n, ticket p' = Some (b, n) -> ticket p = Some (b, n) \/ b = s_c (c_sh c)) ->
  dead c -> dead c'.
Proof.
  intros Ey Ec Ht [D1 D2]. unfold dead, c'. cbn [commit c_sh c_pool]. rewrite Ey. split; [lia|].
  intros u b n. destruct (Nat.eq_dec u t) as [->|Hn].
  - rewrite upd_same. intros E. destruct (Ht b n E) as [H|H]; [apply (D2 t b n H)|lia].
  - rewrite upd_other by assumption. apply D2.
Qed.

(** the thread inside the critical section leaves it without publishing: the ticket at the yielded
    counter is given up *)
Lemma dead_abandon :
  in_crit p = true -> ticket p' = None -> s_c sh' = s_c (c_sh c) -> s_y sh' = s_y (c_sh c) -> dead c'.
Proof.
  intros Ct Tt' Ec Ey. destruct (crit_ticket c t A Ct) as (Hlt & _ & Hu).
  unfold dead, c'. cbn [commit c_sh c_pool]. rewrite Ec, Ey. split; [exact Hlt|].
  intros u b m. destruct (Nat.eq_dec u t) as [->|Hn]; [rewrite upd_same; fold p'; rewrite Tt'; discriminate|].
  rewrite upd_other by assumption. intros Tu Eb. apply Hn, (Hu u b m Tu Eb).
Qed.

Lemma hinv_grow h h' :
  HInv c h -> in_crit p = false -> in_crit p' = false -> grows_only h h' t -> (dead c -> dead c') -> HInv c' h'.
Proof.
  intros I Ct Ct' (G1 & G2 & G3 & G4 & _) Hd. split.
  - rewrite G1. apply (h_fine c h I).
  - intros u. unfold c'. cbn [commit c_pool]. destruct (Nat.eq_dec u t) as [->|Hn]; [rewrite upd_same; fold p'; rewrite Ct'; discriminate|].
    rewrite upd_other by assumption. intros Cu. rewrite G2, (G4 u Hn). apply (h_crit c h I u Cu).
  - intros Ho. assert (Ho' : forall u, in_crit (t_pc (c_pool c u)) = false).
    { intros u. destruct (Nat.eq_dec u t) as [->|Hn]; [exact Ct|]. specialize (Ho u). unfold c' in Ho. cbn [commit c_pool] in Ho.
      rewrite upd_other in Ho by assumption. exact Ho. }
    rewrite G2, G3. destruct (h_open c h I Ho') as [H|H]; [left; exact H|right; apply Hd; exact H].
Qed.

Lemma hinv_solo h' :
  (forall u, u <> t -> in_crit (t_pc (c_pool c u)) = false) -> h_ok h' = true ->
  (if in_crit p' then covered (h_vc h' t) (h_cell h') else covered (h_rel h' SY) (h_cell h') \/ dead c') ->
  HInv c' h'.
Proof.
  intros Hu Hok Hcov. split; [exact Hok| |]; unfold c'; cbn [commit c_pool].
  - intros u. destruct (Nat.eq_dec u t) as [->|Hn].
    + rewrite upd_same. fold p'. intros Ct'. rewrite Ct' in Hcov. exact Hcov.
    + rewrite upd_other, (Hu u Hn) by assumption. discriminate.
  - intros Ho. specialize (Ho t). rewrite upd_same in Ho. fold p' in Ho. rewrite Ho in Hcov. exact Hcov.
Qed.

(** the thread whose ticket begins at the yielded counter reads it with an acquire load and enters *)
Lemma hinv_enter q h a r :
  HInv c h -> p = PLdY q (s_y (c_sh c)) -> p' = PChkT q (s_y (c_sh c)) ->
  HInv c' (hb_step h (LAtom t SY ALoad a r (o_ldy q))).
Proof.
  intros I Hpc Hpc'.
  destruct (at_turn c t (pub_incr q) A) as [Hopen Halive]; try (fold p; rewrite Hpc; reflexivity).
  apply hinv_solo; [intros u _; apply Hopen|apply (h_fine c h I)|].
  rewrite Hpc'. cbn [in_crit hb_step h_cell h_vc]. rewrite set_vc_same, (proj1 (suff_orderings q)).
  destruct (h_open c h I Hopen) as [H|H]; [|contradiction].
  apply (covered_mono (h_rel h SY)); [|exact H]. intros u. unfold vc_join. lia.
Qed.

Lemma hinv_access h :
  HInv c h -> at_src p = true -> in_crit p' = true -> l = LSrcPanic t \/ (exists r, l = LSrc t r) ->
  HInv c' (hb_step h l).
Proof.
  intros I Ct Ct' Hl. apply at_src_crit in Ct. pose proof (h_crit c h I t Ct) as Hcov.
  assert (Hstep : hb_step h l = hb_step h (LSrcPanic t)) by (destruct Hl as [->|(r & ->)]; reflexivity).
  rewrite Hstep. apply hinv_solo; [apply others_not_crit; assumption| |rewrite Ct']; cbn [hb_step h_ok h_cell h_vc].
  - rewrite (h_fine c h I). destruct (h_cell h) as [[u k]|]; [|reflexivity].
    apply orb_true_iff. right. apply N.leb_le. exact Hcov.
  - rewrite set_vc_same. cbn [covered]. rewrite Nat.eqb_refl. lia.
Qed.

(** the thread inside the critical section publishes with a release read-modify-write and leaves *)
Lemma hinv_publish q h a r :
  HInv c h -> in_crit p = true -> in_crit p' = false -> HInv c' (hb_step h (LAtom t SY AAdd a r (o_pub q))).
Proof.
  intros I Ct Ct'.
  apply hinv_solo; [apply others_not_crit; assumption|apply (h_fine c h I)|].
  rewrite Ct'. left. cbn [hb_step h_rel]. rewrite (proj2 (suff_orderings q)). unfold set_rel. cbn [site_eqb].
  apply (covered_mono (h_vc h t)); [|exact (h_crit c h I t Ct)].
  intros u. destruct (is_acq (o_pub q)); unfold vc_join; lia.
Qed.

End Commit.

(** once the ticket at the yielded counter has been given up, it stays so: nobody is inside the critical
    section, the yielded counter does not move, and new tickets begin at the reserved counter *)
Lemma dead_step c t : IInvA e L c -> istep_nowrap c t -> dead c -> dead (step e c t).
Proof.
  intros A Hw D. apply istep_moves; [exact A|exact Hw|exact D|]. intros sh' ts' l evs M.
  destruct (move_outside _ _ _ _ _ _ M (dead_nocrit c t A D)) as (Ey & Ec & Ht).
  apply dead_keep; assumption.
Qed.

Lemma iH_step c t : IInvH c -> IInvA e L c -> istep_nowrap c t -> IInvH (step e c t).
Proof.
  intros I A Hw. pose proof (dead_step c t A Hw) as Hd. revert Hd.
  apply (istep_moves (fun c' => (dead c -> dead c') -> IInvH c')); [exact A|exact Hw|intros _; exact I|].
  intros sh' ts' l evs M Hd. unfold IInvH in *. change (c_labels (commit c t sh' ts' l evs)) with (l :: c_labels c).
  rewrite hb_run_cons. set (h := hb_run (c_labels c)) in *.
  assert (G : forall k a r o, grows_only h (hb_step h (LAtom t SF k a r o)) t) by (intros; apply grows_atom; left; discriminate).
  destruct M.
  - apply hinv_grow with h; try assumption. apply grows_call.
  - apply hinv_grow with h; try assumption. apply grows_atom. left. discriminate.
  - apply hinv_grow with h; try assumption. apply grows_atom. right. reflexivity.
  - apply hinv_enter; assumption.
  - (* the completed flag, the thread stays where it is: its clock still covers the cell if it is inside *)
    destruct (in_crit (t_pc (c_pool c t))) eqn:Ct; [|apply hinv_grow with h; try assumption; apply G].
    destruct (G k a r o) as (G1 & G2 & _ & _ & G5).
    apply hinv_solo; [apply others_not_crit; assumption|rewrite G1; apply (h_fine c h I)|].
    replace (in_crit (t_pc ts')) with true. rewrite G2. apply (covered_mono _ _ _ G5), (h_crit c h I t Ct).
  - (* the completed flag, the pull ends: if the thread was inside, it leaves without publishing *)
    destruct (in_crit (t_pc (c_pool c t))) eqn:Ct; [|apply hinv_grow with h; try assumption; apply G].
    apply hinv_solo; [apply others_not_crit; assumption|rewrite (proj1 (G k a r o)); apply (h_fine c h I)|].
    replace (in_crit (t_pc ts')) with false. right. apply dead_abandon; assumption.
  - apply hinv_access; assumption.
  - apply hinv_publish; assumption.
Qed.

Lemma iH_init progs : IInvH (init progs).
Proof. split; [reflexivity|discriminate|]. intros _. left. exact Logic.I. Qed.

End IterH.

(** induction over a run of the wrapper over an arbitrary iterator, with layer A at hand at every step *)
Lemma iter_run_ind (P : cfg -> Prop) e progs sched :
  iter_env e -> wf_progs progs -> nowrap (c_labels (exec e (init progs) sched)) ->
  P (init progs) ->
  (forall L c t, IInvA e L c -> istep_nowrap c t -> P c -> P (step e c t)) ->
  P (exec e (init progs) sched).
Proof.
  intros (_ & Hk) Hp Hw H0 Hstep. set (L := nodup Nat.eq_dec sched).
  apply (exec_inv e label_nowrap (fun t => In t L) (fun c => IInvA e L c /\ P c)) with (s := sched) (c := init progs);
    [| |split; [apply iA_init; exact Hp|exact H0]|exact Hw].
  - intros c t Ht [A Hc] Hq. pose proof (istep_labels e Hk c t Hq) as Hw'.
    split; [apply iA_step; try assumption; apply NoDup_nodup|apply (Hstep L); assumption].
  - apply Forall_forall. intros t Ht. apply nodup_In. exact Ht.
Qed.

(** every use of the wrapped iterator happens-after the previous one, for the orderings the source declares *)
Theorem iter_C07_hb : forall e, iter_env e -> forall progs, wf_progs progs -> forall sched,
  nowrap (c_labels (exec e (init progs) sched)) ->
  chk_C07_hb (c_labels (exec e (init progs) sched)) = true.
Proof.
  intros e He progs Hp sched Hw. apply (h_fine (exec e (init progs) sched)).
  apply (iter_run_ind IInvH e progs sched He Hp Hw); [apply iH_init|].
  intros L c t A Hw' I. apply (iH_step e (proj2 He) L c t I A Hw').
Qed.

(** * C07 (a) on the label stream: the mutual-exclusion scan [chk_C07_mutex] is true on the labels of
      every run of the wrapper over an arbitrary iterator.  (The scan is what judges the crate's label
      streams; this theorem says it never objects to the model.) *)

(** the state the scan is in after the labels [ls] (latest first) *)
Definition cs_run (ls : list label) : cs_state :=
  fold_left (fun s l => fst (cs_step s l)) (rev ls) {| cs_ticket := []; cs_in := [] |}.

Lemma cs_scan_snoc s ls x :
  cs_scan s (ls ++ [x]) = cs_scan s ls && snd (cs_step (fold_left (fun s l => fst (cs_step s l)) ls s) x).
Proof.
  revert s. induction ls as [|l ls IH]; intros s; cbn [app cs_scan fold_left].
  - destruct (cs_step s x) as [s' ok]. apply andb_true_r.
  - destruct (cs_step s l) as [s' ok]. rewrite IH. apply andb_assoc.
Qed.

Lemma chk_mutex_cons l ls : chk_C07_mutex (l :: ls) = chk_C07_mutex ls && snd (cs_step (cs_run ls) l).
Proof. apply cs_scan_snoc. Qed.

Lemma cs_run_cons l ls : cs_run (l :: ls) = fst (cs_step (cs_run ls) l).
Proof. unfold cs_run. cbn [rev]. rewrite fold_left_app. reflexivity. Qed.

Lemma assoc_get_filter t u l : u <> t -> assoc_get u (filter (fun p => negb (Nat.eqb (fst p) t)) l) = assoc_get u l.
Proof.
  intros Hne. induction l as [|[w x] l IH]; cbn [filter assoc_get fst]; [reflexivity|].
  destruct (Nat.eqb_spec w t) as [->|Hw]; cbn [negb].
  - destruct (Nat.eqb_spec t u); [congruence|exact IH].
  - cbn [assoc_get]. destruct (Nat.eqb w u); [reflexivity|exact IH].
Qed.

Lemma assoc_get_set t v u l : assoc_get u (assoc_set t v l) = if Nat.eqb u t then Some v else assoc_get u l.
Proof.
  unfold assoc_set. cbn [assoc_get]. rewrite (Nat.eqb_sym t u).
  destruct (Nat.eqb_spec u t); [reflexivity|apply assoc_get_filter; assumption].
Qed.

Lemma tid_mem_del t u l : tid_mem u (tid_del t l) = tid_mem u l && negb (Nat.eqb u t).
Proof.
  unfold tid_mem, tid_del. induction l as [|w l IH]; cbn [filter]; [reflexivity|].
  destruct (Nat.eqb_spec w t) as [->|Hw]; cbn [negb existsb]; rewrite IH.
  - destruct (Nat.eqb u t), (existsb (Nat.eqb u) l); reflexivity.
  - destruct (Nat.eqb_spec u w) as [->|]; [|reflexivity]. apply Nat.eqb_neq in Hw. rewrite Hw. reflexivity.
Qed.

Lemma tid_mem_del_other t u l : u <> t -> tid_mem u (tid_del t l) = tid_mem u l.
Proof. intros Hn. rewrite tid_mem_del. destruct (Nat.eqb_spec u t); [contradiction|apply andb_true_r]. Qed.

Lemma no_member_nil l : (forall u, tid_mem u l = false) -> l = [].
Proof.
  destruct l as [|w l]; [reflexivity|]. intros H. specialize (H w). unfold tid_mem in H. cbn [existsb] in H.
  rewrite Nat.eqb_refl in H. discriminate.
Qed.

Definition same_for (u : tid) (st st' : cs_state) : Prop :=
  tid_mem u (cs_in st') = tid_mem u (cs_in st) /\ assoc_get u (cs_ticket st') = assoc_get u (cs_ticket st).

Lemma cs_step_flag st t k a r o :
  exists st', cs_step st (LAtom t SF k a r o) = (st', true) /\ cs_ticket st' = cs_ticket st /\
    (forall u, tid_mem u (cs_in st') = true -> tid_mem u (cs_in st) = true) /\
    (forall u, u <> t -> same_for u st st') /\ (k = ALoad -> st' = st).
Proof.
  destruct k; eexists; (split; [reflexivity|]); repeat split; try discriminate; try (intros u H; exact H); cbn [cs_in].
  - intros u H. rewrite tid_mem_del in H. apply andb_true_iff in H. apply H.
  - apply tid_mem_del_other. assumption.
Qed.

(** how the state of the scan relates to the state of the machine.  A thread that the scan counts as
    inside is inside its critical section, or it has left it at the second look at the completed flag
    (which performs no store, so the scan keeps it until its next call): in that case the ticket at the
    yielded counter has been given up for good ([dead]) and nobody will ever enter again *)
Record ScanRel (c : cfg) (st : cs_state) : Prop := {
  r_src  : forall t, at_src (t_pc (c_pool c t)) = true -> tid_mem t (cs_in st) = true;
  r_in   : forall u, tid_mem u (cs_in st) = true -> in_crit (t_pc (c_pool c u)) = true \/ dead c;
  r_tk   : forall t b n, ticket (t_pc (c_pool c t)) = Some (b, n) -> assoc_get t (cs_ticket st) = Some b
}.

Record ScanInv (c : cfg) : Prop := { s_ok : chk_C07_mutex (c_labels c) = true; s_r : ScanRel c (cs_run (c_labels c)) }.

(** one step of thread [t]: what is left to show is that the scan accepts the label, that it learns nothing
    of the other threads, and that its new state [st'] fits the new program counter of [t]: the scan counts
    [t] as inside when it is about to use the wrapped iterator, and never (unless the protocol is dead) when
    it is outside *)
Lemma s_commit c t sh' ts' l evs st' :
  ScanInv c -> (dead c -> dead (commit c t sh' ts' l evs)) ->
  cs_step (cs_run (c_labels c)) l = (st', true) ->
  (forall u, u <> t -> same_for u (cs_run (c_labels c)) st') ->
  (if in_crit (t_pc ts') then at_src (t_pc ts') = true -> tid_mem t (cs_in st') = true
   else tid_mem t (cs_in st') = true -> dead (commit c t sh' ts' l evs)) ->
  (forall b n, ticket (t_pc ts') = Some (b, n) -> assoc_get t (cs_ticket st') = Some b) ->
  ScanInv (commit c t sh' ts' l evs).
Proof.
  intros I Hd Hst Hfr H1 H3. pose proof (s_r c I) as Rc.
  split; change (c_labels (commit c t sh' ts' l evs)) with (l :: c_labels c).
  - rewrite chk_mutex_cons, Hst, (s_ok c I). reflexivity.
  - rewrite cs_run_cons, Hst. split; intros u; cbn [commit c_pool fst]; (destruct (Nat.eq_dec u t) as [->|Hn];
      [rewrite upd_same|rewrite upd_other by assumption; destruct (Hfr u Hn) as [Em Eg]]).
    + intros E. rewrite (at_src_crit _ E) in H1. apply H1, E.
    + rewrite Em. apply (r_src c _ Rc).
    + intros Hm. destruct (in_crit (t_pc ts')); [left; reflexivity|right; apply H1, Hm].
    + rewrite Em. intros Hu. destruct (r_in c _ Rc u Hu) as [H|H]; [left; exact H|right; apply Hd; exact H].
    + exact H3.
    + rewrite Eg. apply (r_tk c _ Rc).
Qed.

Section Scan.

Variable e : env.
Hypothesis Hk : e_kind e = KIter.
Variable L : list tid.

Lemma s_step c t : IInvA e L c -> ScanInv c -> istep_nowrap c t -> ScanInv (step e c t).
Proof.
  intros A I Hw. pose proof (s_r c I) as Rc. pose proof (dead_step e Hk L c t A Hw) as Hd. revert Hd.
  apply (istep_moves e Hk L (fun c' => (dead c -> dead c') -> ScanInv c')); [exact A|exact Hw|intros _; exact I|].
  intros sh' ts' l evs M Hd. pose proof (fun st' => s_commit c t sh' ts' l evs st' I Hd) as Hgo.
  set (st := cs_run (c_labels c)) in *.
  (* a thread outside the critical section that the scan still counts as inside *)
  assert (Hin : in_crit (t_pc (c_pool c t)) = false -> tid_mem t (cs_in st) = true -> dead (commit c t sh' ts' l evs)).
  { intros Ct Hm. destruct (r_in c _ Rc t Hm) as [H|H]; [congruence|apply Hd; exact H]. }
  assert (Hdel : tid_mem t (tid_del t (cs_in st)) = true -> dead (commit c t sh' ts' l evs)).
  { rewrite tid_mem_del, Nat.eqb_refl, andb_false_r. discriminate. }
  assert (Hsame : forall u, u <> t -> same_for u st st) by (split; reflexivity).
  destruct M.
  - (* a call: the scan forgets the thread *)
    eapply Hgo; [reflexivity| |rewrite Ct'; apply Hdel|congruence].
    intros u Hn. split; [apply tid_mem_del_other|apply assoc_get_filter]; exact Hn.
  - (* a reservation: the scan notes the ticket *)
    eapply Hgo; [reflexivity| |rewrite Ct'; apply Hin, Ct|].
    + intros u Hn. split; [reflexivity|]. cbn [cs_ticket]. rewrite assoc_get_set. destruct (Nat.eqb_spec u t); [contradiction|reflexivity].
    + intros b n' E. cbn [cs_ticket]. rewrite assoc_get_set, Nat.eqb_refl. congruence.
  - (* a load outside the critical section; of the yielded counter only when it is not at the ticket *)
    apply (Hgo st); [|exact Hsame|rewrite Ct'; apply Hin, Ct|].
    + destruct s; try reflexivity. destruct Hs as (b & n & Tb & Nb); [reflexivity|].
      cbn [cs_step]. rewrite (r_tk c _ Rc t b n Tb). destruct (N.eqb_spec b r); [contradiction|reflexivity].
    + intros b n E. destruct Tt' as [Tt'|Tt']; [|congruence]. rewrite Tt' in E. apply (r_tk c _ Rc t b n E).
  - (* the thread finds its ticket at the yielded counter: the scan lets it in if it counts nobody inside *)
    assert (Tt : ticket (t_pc (c_pool c t)) = Some (s_y (c_sh c), pub_incr q)) by (rewrite Ep; reflexivity).
    destruct (at_turn e L c t _ A Tt) as [Hopen Halive]; [rewrite Ep; reflexivity|].
    assert (Hempty : cs_in st = []).
    { apply no_member_nil. intros u. destruct (tid_mem u (cs_in st)) eqn:Hm; [exfalso|reflexivity].
      destruct (r_in c _ Rc u Hm) as [Cu|D]; [rewrite Hopen in Cu; discriminate|exact (Halive D)]. }
    eapply Hgo; [cbn [cs_step]; rewrite (r_tk c _ Rc t _ _ Tt), N.eqb_refl, Hempty; reflexivity| | |];
      rewrite ?Ep'; unfold same_for, tid_mem; cbn [cs_in existsb].
    + intros u Hn. rewrite Hempty. destruct (Nat.eqb_spec u t); [contradiction|split; reflexivity].
    + intros _. rewrite Nat.eqb_refl. reflexivity.
    + intros b n E. injection E as <- _. apply (r_tk c _ Rc t _ _ Tt).
  - (* the completed flag; the thread keeps its ticket and its side of the critical section *)
    destruct (cs_step_flag st t k a r o) as (st' & Hst & Etk & Hsub & Hoth & Hld). apply (Hgo st' Hst Hoth).
    + rewrite Ecr. destruct (in_crit (t_pc (c_pool c t))).
      * intros E. destruct (Hs E) as [Ep Ek]. rewrite (Hld Ek). apply (r_src c _ Rc t Ep).
      * intros Hm. apply (Hin eq_refl), Hsub, Hm.
    + intros b n E. rewrite Etk. rewrite Tt' in E. apply (r_tk c _ Rc t b n E).
  - (* the completed flag; the pull ends.  When the thread was inside it leaves without an add: the scan
       may keep it inside until its next call, and nobody enters any more *)
    destruct (cs_step_flag st t k a r o) as (st' & Hst & _ & Hsub & Hoth & _). apply (Hgo st' Hst Hoth); [|congruence].
    rewrite Ct'. intros Hm. destruct (r_in c _ Rc t (Hsub t Hm)) as [H|H]; [apply (dead_abandon e L); assumption|apply Hd; exact H].
  - pose proof (r_src c _ Rc t Hs) as Hm. apply (Hgo st); [|exact Hsame| |].
    + destruct Hl as [->|(r & ->)]; cbn [cs_step]; rewrite Hm; reflexivity.
    + rewrite Ct'. intros _. exact Hm.
    + intros b n E. rewrite Tt' in E. apply (r_tk c _ Rc t b n E).
  - eapply Hgo; [reflexivity| |rewrite Ct'; apply Hdel|congruence].
    intros u Hn. split; [apply tid_mem_del_other; exact Hn|reflexivity].
Qed.

Lemma s_init progs : ScanInv (init progs).
Proof. split; [reflexivity|]. split; discriminate. Qed.

End Scan.

Theorem iter_C07_mutex_scan : forall e, iter_env e -> forall progs, wf_progs progs -> forall sched,
  nowrap (c_labels (exec e (init progs) sched)) ->
  chk_C07_mutex (c_labels (exec e (init progs) sched)) = true.
Proof.
  intros e He progs Hp sched Hw. apply (s_ok (exec e (init progs) sched)).
  apply (iter_run_ind ScanInv e progs sched He Hp Hw); [apply s_init|].
  intros L c t A Hw' I. apply (s_step e (proj2 He) L c t A I Hw').
Qed.
