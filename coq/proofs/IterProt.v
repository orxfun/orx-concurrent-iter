(** * The ticket protocol of ConIterOfIter, without traces: the invariant [Prot] over the three shared
      numbers (reserved counter, yielded counter, cursor of the wrapped iterator) and the program
      counters, and its preservation by every kind of transition. *)
From Coq Require Import Lia ZArith.
From OCI Require Import Machine Checkers.
From OCI.proofs Require Import Base IterBase.
Open Scope N_scope.

Section Prot.

Variable len : N.

Definition pcs := tid -> pc.

(** the part of the protocol that holds for every wrapped iterator, fused or not: disjoint tickets,
    the ticket at the yielded counter is the one inside the critical section, the elements taken in
    the critical section are the latest positions the wrapped iterator yielded *)
Record Prot (sc sy cur : N) (p : pcs) : Prop := {
  p_le   : sy <= sc;
  p_cur  : cur <= len;
  p_tk   : forall t b n, ticket (p t) = Some (b, n) -> 1 <= n /\ sy <= b /\ b + n <= sc;
  p_disj : forall t u b n b' n', t <> u -> ticket (p t) = Some (b, n) -> ticket (p u) = Some (b', n') ->
             b + n <= b' \/ b' + n' <= b;
  p_crit : forall t b n, in_crit (p t) = true -> ticket (p t) = Some (b, n) -> b = sy;
  p_gotv : forall t, in_crit (p t) = true ->
             rev (got_of (p t)) = ascN (cur - N.of_nat (length (got_of (p t)))) (length (got_of (p t))) /\
             N.of_nat (length (got_of (p t))) <= cur
}.

(** the part that holds when the wrapped iterator is fused (it answers None only when it is exhausted):
    positions and indices coincide *)
Record ProtF (sc sy cur : N) (p : pcs) : Prop := {
  p_got  : forall t b n, in_crit (p t) = true -> ticket (p t) = Some (b, n) ->
             rev (got_of (p t)) = ascN b (length (got_of (p t))) /\
             (cur = b + N.of_nat (length (got_of (p t))) \/ (got_of (p t) = [] /\ cur = len));
  p_pub  : forall t q b g, p t = PPub q b g -> N.of_nat (length g) = pub_incr q \/ cur = len;
  p_setf : forall t q b g, p t = PSetF q b g -> cur = len;
  p_pos  : (forall t, in_crit (p t) = false) ->
             cur = sy \/ cur = len \/ (sy < sc /\ forall t b n, ticket (p t) = Some (b, n) -> b <> sy)
}.

(** both parts, the second one under the hypothesis [fu] that the wrapped iterator is fused *)
Definition ProtA (fu : Prop) (sc sy cur : N) (p : pcs) : Prop :=
  Prot sc sy cur p /\ (fu -> ProtF sc sy cur p).

(** whoever holds the ticket at the yielded counter keeps everybody else out of the critical section:
    another thread inside would hold a ticket that begins there too *)
Lemma prot_turn sc sy cur p t n :
  Prot sc sy cur p -> ticket (p t) = Some (sy, n) -> forall u, u <> t -> in_crit (p u) = false.
Proof.
  intros [_ _ Htk Hdisj Hcrit _] Tt u Hne. destruct (in_crit (p u)) eqn:Cu; [exfalso|reflexivity].
  destruct (crit_ticket _ Cu) as (b & m & Tu).
  pose proof (Hcrit u b m Cu Tu). pose proof (Htk u b m Tu). pose proof (Htk t sy n Tt).
  pose proof (Hdisj u t b m sy n Hne Tu Tt). lia.
Qed.

Lemma prot_inside sc sy cur p t :
  Prot sc sy cur p -> in_crit (p t) = true -> exists n, ticket (p t) = Some (sy, n).
Proof.
  intros I Ct. destruct (crit_ticket _ Ct) as (b & n & Tt).
  exists n. rewrite Tt, (p_crit _ _ _ _ I t b n Ct Tt). reflexivity.
Qed.

Lemma prot_alone sc sy cur p t :
  Prot sc sy cur p -> in_crit (p t) = true -> forall u, u <> t -> in_crit (p u) = false.
Proof. intros I Ct. destruct (prot_inside _ _ _ _ _ I Ct) as (n & Tt). exact (prot_turn _ _ _ _ _ _ I Tt). Qed.

Lemma prot_mutex sc sy cur p : Prot sc sy cur p -> forall t u,
  in_crit (p t) = true -> in_crit (p u) = true -> t = u.
Proof.
  intros I t u Ct Cu. destruct (Nat.eq_dec u t) as [->|Hne]; [reflexivity|].
  rewrite (prot_alone _ _ _ _ _ I Ct u Hne) in Cu. discriminate Cu.
Qed.

Lemma protA_init (fu : Prop) : ProtA fu 0 0 0 (fun _ => PIdle).
Proof. split; split; try discriminate; [apply N.le_0_l|left; reflexivity]. Qed.

(** the invariant looks at a program counter through [ticket], [in_crit] and [got_of] only, except that a
    thread newly about to raise the completed flag, or to publish after that, must have seen the end *)
Lemma protA_congr (fu : Prop) sc sy cur p p' :
  (forall u, ticket (p' u) = ticket (p u)) -> (forall u, in_crit (p' u) = in_crit (p u)) ->
  (forall u, got_of (p' u) = got_of (p u)) ->
  (fu -> forall u, p' u = p u \/ match p' u with PPub _ _ _ | PSetF _ _ _ => cur = len | _ => True end) ->
  ProtA fu sc sy cur p -> ProtA fu sc sy cur p'.
Proof.
  intros Et Ec Eg Ex [[Hle Hcur Htk Hdisj Hcrit Hgotv] F].
  split; [split|intros Hfu; destruct (F Hfu) as [Hgot Hpub Hsetf Hpos]; split].
  - exact Hle.
  - exact Hcur.
  - intros u. rewrite Et. apply Htk.
  - intros u v. rewrite !Et. apply Hdisj.
  - intros u. rewrite Et, Ec. apply Hcrit.
  - intros u. rewrite Ec, Eg. apply Hgotv.
  - intros u. rewrite Et, Ec, Eg. apply Hgot.
  - intros u q b g E. destruct (Ex Hfu u) as [Eu|Eu]; rewrite E in Eu; [exact (Hpub u q b g (eq_sym Eu))|right; exact Eu].
  - intros u q b g E. destruct (Ex Hfu u) as [Eu|Eu]; rewrite E in Eu; [exact (Hsetf u q b g (eq_sym Eu))|exact Eu].
  - intros Ho. destruct Hpos as [H|[H|[H1 H2]]]; [intros u; rewrite <- Ec; apply Ho|auto..|].
    right; right. split; [exact H1|]. intros u. rewrite Et. apply H2.
Qed.

Lemma protA_ext (fu : Prop) sc sy cur p p' : (forall u, p' u = p u) -> ProtA fu sc sy cur p -> ProtA fu sc sy cur p'.
Proof. intros E. apply protA_congr; try (intros u; rewrite E; reflexivity). left. apply E. Qed.

(** the same ticket, side and elements under another program counter *)
Lemma protA_keep (fu : Prop) sc sy cur p t pc0 x :
  p t = pc0 -> ticket x = ticket pc0 -> in_crit x = in_crit pc0 -> got_of x = got_of pc0 ->
  (fu -> match x with PPub _ _ _ | PSetF _ _ _ => cur = len | _ => True end) ->
  ProtA fu sc sy cur p -> ProtA fu sc sy cur (upd p t x).
Proof.
  intros <- Et Ec Eg Ex. apply protA_congr.
  - intros u. spl u t; [exact Et|reflexivity].
  - intros u. spl u t; [exact Ec|reflexivity].
  - intros u. spl u t; [exact Eg|reflexivity].
  - intros Hfu u. spl u t; [right; exact (Ex Hfu)|left; reflexivity].
Qed.

(** a thread gives its ticket up, or had none.  Outside the critical section it saw the completed flag
    (or starts or ends an operation that needs no ticket); inside, the ticket at the yielded counter is
    abandoned and nobody will ever be served again *)
Lemma protA_drop (fu : Prop) sc sy cur p t x :
  ticket x = None -> ProtA fu sc sy cur p -> ProtA fu sc sy cur (upd p t x).
Proof.
  intros Tx [I F]. pose proof I as [Hle Hcur Htk Hdisj Hcrit Hgotv].
  pose proof (no_ticket_outside x Tx) as Cx.
  assert (Hu : forall u, upd p t x u = p u \/ upd p t x u = x) by (intros u; spl u t; auto).
  assert (Ht : forall u b n, ticket (upd p t x u) = Some (b, n) -> u <> t /\ ticket (p u) = Some (b, n)).
  { intros u b n. spl u t; [rewrite Tx; discriminate|auto]. }
  split; [split|intros Hfu; destruct (F Hfu) as [Hgot Hpub Hsetf Hpos]; split].
  - exact Hle.
  - exact Hcur.
  - intros u b n E. apply (Htk u), Ht, E.
  - intros u v b n b' n' Hne Eu Ev. apply (Hdisj u v); [exact Hne|apply Ht, Eu|apply Ht, Ev].
  - intros u. destruct (Hu u) as [->| ->]; [apply Hcrit|rewrite Cx; discriminate].
  - intros u. destruct (Hu u) as [->| ->]; [apply Hgotv|rewrite Cx; discriminate].
  - intros u. destruct (Hu u) as [->| ->]; [apply Hgot|rewrite Cx; discriminate].
  - intros u q b g. destruct (Hu u) as [->|E]; [apply Hpub|intros E'; rewrite <- E, E' in Cx; discriminate Cx].
  - intros u q b g. destruct (Hu u) as [->|E]; [apply Hsetf|intros E'; rewrite <- E, E' in Cx; discriminate Cx].
  - intros Ho. destruct (in_crit (p t)) eqn:Ct.
    + right; right. destruct (prot_inside _ _ _ _ _ I Ct) as (n & Tt). pose proof (Htk t sy n Tt). split; [lia|].
      intros u b m E. destruct (Ht u b m E) as [Hne Eu].
      pose proof (Htk u b m Eu). pose proof (Hdisj u t b m sy n Hne Eu Tt). lia.
    + assert (Ho' : forall u, in_crit (p u) = false).
      { intros u. specialize (Ho u). destruct (Hu u) as [E|E]; [rewrite <- E; exact Ho|]. revert E. spl u t; congruence. }
      destruct (Hpos Ho') as [H|[H|[H1 H2]]]; auto. right; right. split; [exact H1|].
      intros u b n E. apply (H2 u b n), Ht, E.
Qed.

(** a reservation: the reserved counter advances by [n >= 1] and the thread holds [sc, sc + n) *)
Lemma protA_reserve (fu : Prop) sc sy cur p t pc0 x n :
  p t = pc0 -> ticket pc0 = None -> ticket x = Some (sc, n) -> in_crit x = false -> 1 <= n ->
  ProtA fu sc sy cur p -> ProtA fu (sc + n) sy cur (upd p t x).
Proof.
  intros <- Tn Tx Cx Hn [[Hle Hcur Htk Hdisj Hcrit Hgotv] F].
  split; [split|intros Hfu; destruct (F Hfu) as [Hgot Hpub Hsetf Hpos]; split].
  - lia.
  - exact Hcur.
  - intros u b m. spl u t.
    + rewrite Tx. intros E. injection E as <- <-. lia.
    + intros E. pose proof (Htk u b m E). lia.
  - intros u v b m b' m' Hne. spl u t; spl v t.
    + contradiction Hne. reflexivity.
    + rewrite Tx. intros E E'. injection E as <- <-. pose proof (Htk v b' m' E'). lia.
    + rewrite Tx. intros E E'. injection E' as <- <-. pose proof (Htk u b m E). lia.
    + apply Hdisj. exact Hne.
  - intros u. spl u t; [rewrite Cx; discriminate|apply Hcrit].
  - intros u. spl u t; [rewrite Cx; discriminate|apply Hgotv].
  - intros u. spl u t; [rewrite Cx; discriminate|apply Hgot].
  - intros u q b g. spl u t; [intros E; rewrite E in Cx; discriminate Cx|apply Hpub].
  - intros u q b g. spl u t; [intros E; rewrite E in Cx; discriminate Cx|apply Hsetf].
  - intros Ho. assert (Ho' : forall u, in_crit (p u) = false).
    { intros u. specialize (Ho u). revert Ho. spl u t; [intros _; apply no_ticket_outside, Tn|auto]. }
    destruct (Hpos Ho') as [H|[H|[H1 H2]]]; auto. right; right. split; [lia|].
    intros u b m. spl u t; [rewrite Tx; intros E; injection E as <- <-; lia|apply H2].
Qed.

(** entering the critical section: the ticket begins at the yielded counter (the thread is about to
    look at the completed flag once more) *)
Lemma protA_enter (fu : Prop) sc sy cur p t pc0 q :
  p t = pc0 -> ticket pc0 = Some (sy, pub_incr q) -> in_crit pc0 = false ->
  ProtA fu sc sy cur p -> ProtA fu sc sy cur (upd p t (PChkT q sy)).
Proof.
  intros <- Tt Ct [I F]. pose proof I as [Hle Hcur Htk Hdisj Hcrit Hgotv].
  assert (Hopen : forall u, in_crit (p u) = false).
  { intros u. destruct (Nat.eq_dec u t) as [->|Hne]; [exact Ct|exact (prot_turn _ _ _ _ _ _ I Tt u Hne)]. }
  assert (At : forall u, ticket (upd p t (PChkT q sy) u) = ticket (p u)) by (intros u; spl u t; auto).
  split; [split|intros Hfu; destruct (F Hfu) as [Hgot Hpub Hsetf Hpos]; split].
  - exact Hle.
  - exact Hcur.
  - intros u. rewrite At. apply Htk.
  - intros u v. rewrite !At. apply Hdisj.
  - intros u b n. spl u t; [intros _ E; injection E as <- _; reflexivity|rewrite Hopen; discriminate].
  - intros u. spl u t; [intros _; split; [reflexivity|apply N.le_0_l]|rewrite Hopen; discriminate].
  - intros u b n. spl u t; [intros _ E; injection E as <- _|rewrite Hopen; discriminate].
    rewrite N.add_0_r.
    destruct (Hpos Hopen) as [H|[H|[_ H]]]; auto. contradiction (H t _ _ Tt). reflexivity.
  - intros u q' b g. spl u t; [discriminate|apply Hpub].
  - intros u q' b g. spl u t; [discriminate|apply Hsetf].
  - intros Ho. specialize (Ho t). rewrite upd_same in Ho. discriminate Ho.
Qed.

(** inside the critical section: the thread takes the next element of the wrapped iterator *)
Lemma protA_take (fu : Prop) sc sy cur p t pc0 x :
  p t = pc0 -> in_crit pc0 = true -> cur < len ->
  ticket x = ticket pc0 -> in_crit x = true -> got_of x = cur :: got_of pc0 ->
  (fu -> match x with PPub q _ g => N.of_nat (length g) = pub_incr q | PSetF _ _ _ => False | _ => True end) ->
  ProtA fu sc sy cur p -> ProtA fu sc sy (cur + 1) (upd p t x).
Proof.
  intros <- Ct Hlt Tx Cx Gx Hx [I F]. pose proof I as [Hle Hcur Htk Hdisj Hcrit Hgotv].
  pose proof (prot_alone _ _ _ _ _ I Ct) as Hoth.
  assert (At : forall u, ticket (upd p t x u) = ticket (p u)) by (intros u; spl u t; auto).
  split; [split|intros Hfu; destruct (F Hfu) as [Hgot Hpub Hsetf Hpos]; split].
  - exact Hle.
  - lia.
  - intros u. rewrite At. apply Htk.
  - intros u v. rewrite !At. apply Hdisj.
  - intros u b n. rewrite At. spl u t; [intros _; apply Hcrit, Ct|rewrite Hoth by assumption; discriminate].
  - intros u. spl u t; [intros _|rewrite Hoth by assumption; discriminate].
    destruct (Hgotv t Ct) as [Hasc Hg]. rewrite Gx. cbn [rev length]. rewrite Hasc, Nat2N.inj_succ. split; [|lia].
    replace (cur + 1 - N.succ (N.of_nat (length (got_of (p t))))) with (cur - N.of_nat (length (got_of (p t)))) by lia.
    rewrite <- ascN_snoc. f_equal. f_equal. lia.
  - intros u b n. rewrite At. spl u t; [intros _ Tt|rewrite Hoth by assumption; discriminate].
    destruct (Hgot t b n Ct Tt) as [Hasc Hc]. rewrite Gx. cbn [rev length]. rewrite Hasc.
    assert (cur = b + N.of_nat (length (got_of (p t)))) as -> by (destruct Hc as [H|[_ H]]; [exact H|lia]).
    split; [apply ascN_snoc|left; lia].
  - intros u q b g. spl u t; intros E; [left; specialize (Hx Hfu); rewrite E in Hx; exact Hx|].
    apply (f_equal in_crit) in E. rewrite Hoth in E by assumption. discriminate E.
  - intros u q b g. spl u t; intros E; [specialize (Hx Hfu); rewrite E in Hx; contradiction|].
    apply (f_equal in_crit) in E. rewrite Hoth in E by assumption. discriminate E.
  - intros Ho. specialize (Ho t). rewrite upd_same, Cx in Ho. discriminate Ho.
Qed.

(** the thread inside the critical section publishes its whole reservation and leaves *)
Lemma protA_publish (fu : Prop) sc sy cur p t q b g x :
  p t = PPub q b g -> ticket x = None ->
  ProtA fu sc sy cur p -> ProtA fu sc (sy + pub_incr q) cur (upd p t x).
Proof.
  intros Ept Tx [I F]. pose proof I as [Hle Hcur Htk Hdisj Hcrit Hgotv].
  pose proof (no_ticket_outside x Tx) as Cx.
  assert (Ct : in_crit (p t) = true) by (rewrite Ept; reflexivity).
  assert (Tt : ticket (p t) = Some (sy, pub_incr q)).
  { rewrite <- (Hcrit t b (pub_incr q) Ct); rewrite Ept; reflexivity. }
  pose proof (Htk t _ _ Tt).
  assert (Hout : forall u, in_crit (upd p t x u) = false).
  { intros u. spl u t; [exact Cx|apply (prot_alone _ _ _ _ _ I Ct); assumption]. }
  assert (Ht : forall u b' n, ticket (upd p t x u) = Some (b', n) -> u <> t /\ ticket (p u) = Some (b', n)).
  { intros u b' n. spl u t; [rewrite Tx; discriminate|auto]. }
  split; [split|intros Hfu; destruct (F Hfu) as [Hgot Hpub Hsetf Hpos]; split].
  - lia.
  - exact Hcur.
  - intros u b' n E. destruct (Ht u b' n E) as [Hne Eu].
    pose proof (Htk u b' n Eu). pose proof (Hdisj u t b' n _ _ Hne Eu Tt). lia.
  - intros u v b1 n1 b2 n2 Hne Eu Ev. apply (Hdisj u v); [exact Hne|apply Ht, Eu|apply Ht, Ev].
  - intros u b' n. rewrite Hout. discriminate.
  - intros u. rewrite Hout. discriminate.
  - intros u b' n. rewrite Hout. discriminate.
  - intros u q' b' g' E. specialize (Hout u). rewrite E in Hout. discriminate Hout.
  - intros u q' b' g' E. specialize (Hout u). rewrite E in Hout. discriminate Hout.
  - destruct (Hgot t _ _ Ct Tt) as [_ Hc]. rewrite Ept in Hc. cbn [got_of] in Hc.
    destruct (Hpub t q b g Ept) as [Hfull|Hex]; [|auto]. destruct Hc as [Hc|[_ Hc]]; [left; lia|auto].
Qed.

End Prot.
