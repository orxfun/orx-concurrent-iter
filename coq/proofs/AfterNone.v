(** * Once the wrapped next() has answered None, nobody calls it again.

    The thread that meets None (or a panic of the wrapped iterator) holds the ticket at the yielded counter
    until it publishes; it raises the completed flag BEFORE it publishes.  A thread that finds its ticket at
    the yielded counter afterwards looks at the completed flag once more ([PChkT]) and reports the end.  So
    no call of the wrapped next() follows one that answered None -- whether the None was the end of the
    wrapped iterator or a premature one ([e_gap]).

    Consequence: a run of a wrapped iterator that is not fused is, step for step, the run of the fused
    iterator that ends where the first None was answered ([cut]); the checkers of C01--C04, C06 and C12, proved
    for fused wrapped iterators, hold for every wrapped iterator, with the length of the source replaced by the
    number of elements yielded before the first None wherever a property mentions it. *)
From Coq Require Import Lia ZArith List.
From OCI Require Import Machine Checkers.
From OCI.proofs Require Import Base Trace InvKnown ChkKnown IterBase InvIterH ChkIter IterC11 GapFree.
Import ListNotations.
Open Scope N_scope.

(** ** the property, on label streams (latest label first, as the machine accumulates them) *)

Definition is_src (l : label) : bool := match l with LSrc _ _ | LSrcPanic _ => true | _ => false end.
Definition is_none (l : label) : bool := match l with LSrc _ None => true | _ => false end.
Definition is_stop (l : label) : bool := match l with LSrc _ None | LSrcPanic _ => true | _ => false end.

Fixpoint no_src_after_none (ls : list label) : bool :=
  match ls with
  | [] => true
  | l :: tl => (negb (is_src l) || negb (existsb is_none tl)) && no_src_after_none tl
  end.

Fixpoint no_src_after_stop (ls : list label) : bool :=
  match ls with
  | [] => true
  | l :: tl => (negb (is_src l) || negb (existsb is_stop tl)) && no_src_after_stop tl
  end.

Lemma none_is_stop l : is_none l = true -> is_stop l = true.
Proof. destruct l as [u|u s k a r o|u [p|]|u]; try discriminate; reflexivity. Qed.

Lemma exists_none_stop ls : existsb is_none ls = true -> existsb is_stop ls = true.
Proof. rewrite !existsb_exists. intros (l & Hin & H). exists l. auto using none_is_stop. Qed.

Lemma after_stop_after_none ls : no_src_after_stop ls = true -> no_src_after_none ls = true.
Proof.
  induction ls as [|l tl IH]; [reflexivity|]. cbn [no_src_after_none]. intros H.
  apply andb_true_iff in H. destruct H as [H1 H2]. rewrite (IH H2).
  destruct (is_src l); [|reflexivity].
  destruct (existsb is_none tl) eqn:E; [|reflexivity]. rewrite (exists_none_stop tl E) in H1. discriminate.
Qed.

(** the thread is about to raise the completed flag: the wrapped next() answered None to it, or panicked *)
Definition closing (p : pc) : bool := match p with PSetF _ _ _ | PUnw _ _ _ => true | _ => false end.

Lemma closing_crit p : closing p = true -> in_crit p = true.
Proof. destruct p; try discriminate; reflexivity. Qed.

Definition stopped (c : cfg) : bool := existsb is_stop (c_labels c).

Section Stop.

Variable e : env.
Hypothesis Hk : e_kind e = KIter.

(** the invariant: after the first None (or panic) nobody is about to call the wrapped next(), and the
    completed flag is up or the thread that met the None is about to raise it (it is still inside the
    critical section); before it, every call has yielded an element and none was a gap *)
Record Stp (c : cfg) : Prop := {
  st_scan : no_src_after_stop (c_labels c) = true;
  st_src  : stopped c = true -> forall t q b g, t_pc (c_pool c t) <> PSrc q b g;
  st_flag : stopped c = true -> s_f (c_sh c) = true \/ exists t, closing (t_pc (c_pool c t)) = true;
  st_cnt  : stopped c = false -> s_calls (c_sh c) = s_cur (c_sh c) /\ gap_free e (s_calls (c_sh c))
}.

Lemma stp_open c t q b g : Stp c -> t_pc (c_pool c t) = PSrc q b g -> stopped c = false.
Proof. intros I Hpc. destruct (stopped c) eqn:Hs; [|reflexivity]. contradiction (st_src c I Hs t q b g). Qed.

(** a step that is not a call of the wrapped next() and leaves its counters alone keeps the invariant, if the
    completed flag stays up, a thread that was about to raise it has raised it, and the way to the call is a
    look at the completed flag from inside the critical section that found it down: then the thread that
    met the None would still be inside its own *)
Lemma stp_commit c t p sh ts l evs :
  t_pc (c_pool c t) = p ->
  (forall u, in_crit (t_pc (c_pool c u)) = true -> in_crit p = true -> u = t) ->
  Stp c -> is_src l = false ->
  s_calls sh = s_calls (c_sh c) -> s_cur sh = s_cur (c_sh c) ->
  (s_f (c_sh c) = true -> s_f sh = true) ->
  (closing p = true -> s_f sh = true) ->
  (forall q b g, t_pc ts = PSrc q b g -> s_f (c_sh c) = false /\ in_crit p = true /\ closing p = false) ->
  Stp (commit c t sh ts l evs).
Proof.
  intros Hpc Mx I Hl Hc Hu Hf Hcl Hsrc.
  assert (Hst : stopped (commit c t sh ts l evs) = stopped c).
  { destruct l as [u|u s k a r o|u [x|]|u]; try reflexivity; discriminate Hl. }
  split; rewrite ?Hst; cbn [commit c_labels c_sh c_pool].
  - cbn [no_src_after_stop]. rewrite Hl. apply (st_scan c I).
  - intros Hs u q b g. destruct (Nat.eq_dec u t) as [->|Hne]; [|rewrite upd_other by assumption; apply (st_src c I Hs)].
    rewrite upd_same. intros E. destruct (Hsrc q b g E) as (Hf0 & Hcr & Hnc).
    destruct (st_flag c I Hs) as [Hf1|(v & Hv)]; [congruence|].
    rewrite (Mx v (closing_crit _ Hv) Hcr) in Hv. congruence.
  - intros Hs. destruct (st_flag c I Hs) as [Hf1|(v & Hv)]; [left; apply Hf; exact Hf1|].
    destruct (Nat.eq_dec v t) as [->|Hne]; [left; apply Hcl; rewrite <- Hpc; exact Hv|].
    right. exists v. rewrite upd_other by assumption. exact Hv.
  - rewrite Hc, Hu. apply (st_cnt c I).
Qed.

(** a call of the wrapped next() by a thread in the critical section keeps the invariant, if it answers None or
    panics and the thread goes on to raise the completed flag, or yields the next element and was not a gap *)
Lemma stp_call c t q b g sh p l :
  t_pc (c_pool c t) = PSrc q b g ->
  (forall u, in_crit (t_pc (c_pool c u)) = true -> in_crit (PSrc q b g) = true -> u = t) ->
  Stp c ->
  (is_stop l = true /\ closing p = true) \/
  (l = LSrc t (Some (s_cur (c_sh c))) /\ e_gap e (s_calls (c_sh c)) = false /\
   s_calls sh = s_calls (c_sh c) + 1 /\ s_cur sh = s_cur (c_sh c) + 1) ->
  Stp (commit c t sh (set_pc (c_pool c t) p) l []).
Proof.
  intros Hpc Mx I Hl. pose proof (stp_open c t q b g I Hpc) as Hns.
  destruct (st_cnt c I Hns) as [Hcnt Hgf].
  assert (Hscan : no_src_after_stop (l :: c_labels c) = true).
  { cbn [no_src_after_stop]. fold (stopped c). rewrite Hns, orb_true_r. apply (st_scan c I). }
  unfold stopped in Hns.
  destruct Hl as [[Hl Hp]|(-> & Hg & Hc & Hu)]; split; try exact Hscan;
    unfold stopped; cbn [commit c_labels c_sh c_pool existsb]; rewrite ?Hl, ?Hns; try discriminate.
  - (* the other threads are outside the critical section *)
    intros _ u q' b' g'. destruct (Nat.eq_dec u t) as [->|Hne].
    + rewrite upd_same. intros E. cbn [set_pc t_pc] in E. rewrite E in Hp. discriminate Hp.
    + rewrite upd_other by assumption. intros E. apply Hne, Mx; [rewrite E|]; reflexivity.
  - intros _. right. exists t. rewrite upd_same. exact Hp.
  - intros _. split; [lia|]. intros k Hlt.
    destruct (N.eq_dec k (s_calls (c_sh c))) as [->|Hne]; [exact Hg|apply Hgf; lia].
Qed.

Lemma stp_step c t :
  (forall u, in_crit (t_pc (c_pool c u)) = true -> in_crit (t_pc (c_pool c t)) = true -> u = t) ->
  Stp c -> Stp (step e c t).
Proof.
  intros Mx I. unfold step, src_next.
  (* every leaf of [step] is a [commit], or a [finish]: a commit that takes the thread out of the critical
     section ([finish_form]); the premises of the two lemmas are read off it *)
  destruct (t_pc (c_pool c t)) as [|q|q b|q b|q b|q b got|q b got|q b got|q b got| |hm|hm] eqn:Hpc; rewrite ?Hk.
  1: destruct (t_todo (c_pool c t)) as [|[] rest]; [exact I|unfold call, call_res; rewrite ?Hk..].
  all: repeat match goal with |- context [match ?x with _ => _ end] =>
         lazymatch x with context [match _ with _ => _ end] => fail | _ => destruct x eqn:? end end.
  all: try match goal with |- Stp (finish _ _ _ ?sh ?ts ?l ?q ?pr) =>
         destruct (finish_form e c t sh ts l q pr) as (ts' & evs & -> & Hc & _) end.
  all: first
    [ apply (stp_call c t _ _ _ _ _ _ Hpc Mx I);
      first [left; split; reflexivity|right; repeat split; first [reflexivity|assumption]]
    | apply (stp_commit c t _ _ _ _ _ Hpc Mx I);
      [ reflexivity | reflexivity | reflexivity
      | first [discriminate|intros _; reflexivity|intros _; assumption|intros H; exact H]
      | first [discriminate|intros _; reflexivity]
      | intros ? ? ? E;
        first [discriminate E|rewrite E in Hc; discriminate Hc|repeat split; first [assumption|reflexivity]] ] ].
Qed.

End Stop.

Lemma stp_run e progs sched : iter_env e -> wf_progs progs ->
  nowrap (c_labels (exec e (init progs) sched)) -> Stp e (exec e (init progs) sched).
Proof.
  intros Hie Hp Hw. apply (iter_run_ind (Stp e) e progs sched Hie Hp Hw).
  - split; unfold stopped; cbn [init c_sh s_calls]; try discriminate; try reflexivity.
    intros _. split; [reflexivity|]. intros k Hlt. lia.
  - intros L c t A _ I. apply stp_step; [apply Hie| |exact I].
    intros u Hu Ht. apply (InvIterA.mutex e L c A); assumption.
Qed.

Section NoCall.

Variable e : env.
Hypothesis Hie : iter_env e.
Variable progs : tid -> list op.
Hypothesis Hp : wf_progs progs.
Variable sched : list tid.
Hypothesis Hw : nowrap (c_labels (exec e (init progs) sched)).

Theorem iter_no_src_after_stop : no_src_after_stop (c_labels (exec e (init progs) sched)) = true.
Proof. apply (st_scan e _ (stp_run e progs sched Hie Hp Hw)). Qed.

Theorem iter_no_src_after_none : no_src_after_none (c_labels (exec e (init progs) sched)) = true.
Proof. apply after_stop_after_none, iter_no_src_after_stop. Qed.

(** the state form: once some call has answered None, in every later state no thread is about to call the
    wrapped next(), and the completed flag is up or the thread that met the None (it is still inside its
    critical section) is about to raise it *)
Theorem iter_none_is_final :
  existsb is_none (c_labels (exec e (init progs) sched)) = true ->
  (forall t q b g, t_pc (c_pool (exec e (init progs) sched) t) <> PSrc q b g) /\
  (s_f (c_sh (exec e (init progs) sched)) = true \/
   exists t, closing (t_pc (c_pool (exec e (init progs) sched) t)) = true).
Proof.
  intros Hn. pose proof (stp_run e progs sched Hie Hp Hw) as I.
  assert (Hs : stopped (exec e (init progs) sched) = true) by (apply exists_none_stop; exact Hn).
  split; [apply (st_src e _ I Hs)|apply (st_flag e _ I Hs)].
Qed.

End NoCall.

Print Assumptions iter_no_src_after_none.
Print Assumptions iter_none_is_final.

(** ** the run of any wrapped iterator is the run of a fused one

    [cut e g]: the fused wrapped iterator that yields the elements [e] yields before its call number [g]
    (the first call that answers None although elements remain).  The crash point is kept: the calls are
    numbered alike in both runs. *)
Definition cut (e : env) (g : N) : env :=
  {| e_kind := e_kind e; e_adaptor := e_adaptor e; e_len := N.min (e_len e) g; e_start := e_start e; e_end := e_end e;
     e_hint := e_hint e; e_owning := e_owning e; e_mode := e_mode e; e_crash := e_crash e; e_gap := fun _ => false |}.

Lemma cut_fuse e g : cut e g = fuse e (N.min (e_len e) g).
Proof. reflexivity. Qed.

Definition first_gap (e : env) (g : N) : Prop := gap_free e g /\ e_gap e g = true.

Lemma first_gap_dec e : forall n, gap_free e n \/ exists g, g < n /\ first_gap e g.
Proof.
  induction n as [|n IH] using N.peano_ind.
  - left. intros k Hlt. lia.
  - destruct IH as [H|(g & Hlt & H1)].
    + destruct (e_gap e n) eqn:E.
      * right. exists n. split; [lia|]. split; assumption.
      * left. intros k Hlt. destruct (N.eq_dec k n) as [->|Hne]; [exact E|apply H; lia].
    + right. exists g. split; [lia|exact H1].
Qed.

(** the length queries of a wrapped iterator with an exact size hint report the length the iterator
    announced when the concurrent iterator was created ([e_len]), which [cut] changes: two results of a
    length query are identified *)
Definition blur_res (r : res) : res := match r with RLen _ | RMore _ => RLen None | x => x end.
Definition blur_ev (ev : event) : event := match ev with ERet t r d => ERet t (blur_res r) d | x => x end.

(** the same configuration up to the answers of the length queries *)
Definition sim (c c' : cfg) : Prop :=
  c_sh c = c_sh c' /\ c_pool c = c_pool c' /\ c_labels c = c_labels c' /\
  map blur_ev (c_trace c) = map blur_ev (c_trace c').

Lemma src_next_cut e g sh :
  first_gap e g -> s_calls sh = s_cur sh -> gap_free e (s_calls sh) -> src_next (cut e g) sh = src_next e sh.
Proof.
  intros [Hgf Hg] Hc Hn. unfold src_next. cbn [cut e_gap e_len]. rewrite <- Hc.
  assert (Hle : s_calls sh <= g).
  { destruct (N.le_gt_cases (s_calls sh) g) as [H|H]; [exact H|]. rewrite (Hn g H) in Hg. discriminate Hg. }
  destruct (N.eq_dec (s_calls sh) g) as [E|E].
  - rewrite E, Hg. destruct (N.ltb_spec g (N.min (e_len e) g)); [lia|reflexivity].
  - rewrite (Hgf (s_calls sh)) by lia.
    destruct (N.ltb_spec (s_calls sh) (N.min (e_len e) g)), (N.ltb_spec (s_calls sh) (e_len e)); try reflexivity; lia.
Qed.

(** the whole run, the histories as [f] shows them: [f] hides what the length queries answer, or the size
    hint is not exact and they never read the reserved counter *)
Lemma exec_cut f e g progs sched : iter_env e -> first_gap e g -> wf_progs progs ->
  e_hint e <> HExact \/ (forall t hm a b, f (ERet t (len_res hm (Some a)) []) = f (ERet t (len_res hm (Some b)) [])) ->
  nowrap (c_labels (exec e (init progs) sched)) ->
  agree f (exec e (init progs) sched) (exec (cut e g) (init progs) sched).
Proof.
  intros Hie Hfg Hp Hf. induction sched as [|t s IH] using rev_ind; intros Hw; [apply agree_refl|].
  rewrite !exec_snoc in *. pose proof (step_labels_suffix e _ _ Hw) as Hw1.
  apply step_fuse; [apply Hie|apply IH; exact Hw1| |].
  - intros q b got Hpc. pose proof (stp_run e progs s Hie Hp Hw1) as I.
    apply (src_next_cut e g _ Hfg); apply (st_cnt e _ I (stp_open e _ t q b got I Hpc)).
  - intros hm Hpc. destruct Hf as [Hh|Hf]; [exfalso|apply Hf].
    assert (HL : Forall (fun u => In u (nodup Nat.eq_dec s)) s) by (apply Forall_forall; intros u Hu; apply nodup_In; exact Hu).
    destruct (iABCD_exec e (proj2 Hie) (or_intror Hh) (nodup Nat.eq_dec s) (NoDup_nodup _ _) progs s Hp HL Hw1) as (_ & _ & _ & D).
    apply Hh, (d_len2 e _ D t hm Hpc).
Qed.

Lemma blur_len t hm a b : blur_ev (ERet t (len_res hm (Some a)) []) = blur_ev (ERet t (len_res hm (Some b)) []).
Proof. destruct hm; reflexivity. Qed.

(** ** the checkers of C01--C04 do not look at the answers of the length queries *)

Lemma res_cover_blur x r : res_cover x (blur_res r) = res_cover x r.
Proof. destruct r; reflexivity. Qed.
Lemma res_runs_blur r : res_runs (blur_res r) = res_runs r.
Proof. destruct r; reflexivity. Qed.
Lemma is_end_blur r : is_end (blur_res r) = is_end r.
Proof. destruct r; reflexivity. Qed.
Lemma is_panic_blur r : is_panic (blur_res r) = is_panic r.
Proof. destruct r; reflexivity. Qed.
Lemma chunk_ok_blur x n k r : chunk_ok x n k (blur_res r) = chunk_ok x n k r.
Proof. destruct r; reflexivity. Qed.

Lemma cov_blur x tr : cov x (map blur_ev tr) = cov x tr.
Proof. induction tr as [|ev tr IH]; [reflexivity|]. destruct ev; cbn [map blur_ev cov]; rewrite ?res_cover_blur, ?IH; reflexivity. Qed.

Lemma cov_of_blur x t tr : cov_of x t (map blur_ev tr) = cov_of x t tr.
Proof. induction tr as [|ev tr IH]; [reflexivity|]. destruct ev; cbn [map blur_ev cov_of]; rewrite ?res_cover_blur, ?IH; reflexivity. Qed.

Lemma n_pending_blur tr : n_pending (map blur_ev tr) = n_pending tr.
Proof. induction tr as [|ev tr IH]; [reflexivity|]. destruct ev; cbn [map blur_ev n_pending]; rewrite ?IH; reflexivity. Qed.

Lemma has_skip_blur tr : has_skip (map blur_ev tr) = has_skip tr.
Proof. induction tr as [|ev tr IH]; [reflexivity|]. destruct ev as [u o|u r d|f r d]; cbn [map blur_ev has_skip]; rewrite ?IH; reflexivity. Qed.

Lemma has_panic_blur tr : has_panic (map blur_ev tr) = has_panic tr.
Proof. induction tr as [|ev tr IH]; [reflexivity|]. destruct ev; cbn [map blur_ev has_panic]; rewrite ?is_panic_blur, ?IH; reflexivity. Qed.

Lemma split_call_blur t tr :
  split_call t (map blur_ev tr) = match split_call t tr with Some (o, older) => Some (o, map blur_ev older) | None => None end.
Proof.
  induction tr as [|ev tr IH]; [reflexivity|]. destruct ev as [u o|u r d|f r d]; cbn [map blur_ev split_call]; try exact IH.
  destruct (Nat.eqb u t); [reflexivity|exact IH].
Qed.

Lemma buf_size_blur t tr : buf_size t (map blur_ev tr) = buf_size t tr.
Proof.
  induction tr as [|ev tr IH]; [reflexivity|]. destruct ev as [u o|u r d|f r d]; cbn [map blur_ev buf_size]; try exact IH.
  destruct o; try exact IH. rewrite IH. reflexivity.
Qed.

Lemma end_reported_blur tr : end_reported (map blur_ev tr) = end_reported tr.
Proof.
  induction tr as [|ev tr IH]; [reflexivity|]. destruct ev as [u o|u r d|f r d]; cbn [map blur_ev end_reported]; try exact IH.
  rewrite is_end_blur, split_call_blur, IH. destruct (split_call u tr) as [[o older]|]; reflexivity.
Qed.

Lemma all_rets_blur (P : tid -> res -> list drops -> list event -> bool) tr :
  (forall t r d tl, P t (blur_res r) d (map blur_ev tl) = P t r d tl) ->
  all_rets P (map blur_ev tr) = all_rets P tr.
Proof.
  intros H. induction tr as [|ev tr IH]; [reflexivity|]. destruct ev; cbn [map blur_ev all_rets]; rewrite ?H, ?IH; reflexivity.
Qed.

Lemma nodup_blur x tr : chk_C01_nodup x (map blur_ev tr) = chk_C01_nodup x tr.
Proof. unfold chk_C01_nodup. rewrite cov_blur. reflexivity. Qed.

Lemma noloss_blur x tr : chk_C01_noloss x (map blur_ev tr) = chk_C01_noloss x tr.
Proof. unfold chk_C01_noloss. rewrite end_reported_blur, n_pending_blur, cov_blur. reflexivity. Qed.

Lemma C02_blur x tr : chk_C02 x (map blur_ev tr) = chk_C02 x tr.
Proof. apply all_rets_blur. intros t r d tl. unfold ev_C02. rewrite res_runs_blur. reflexivity. Qed.

Lemma C03_blur x tr : chk_C03 x (map blur_ev tr) = chk_C03 x tr.
Proof.
  apply all_rets_blur. intros t r d tl. unfold ev_C03. rewrite split_call_blur.
  destruct (split_call t tl) as [[o older]|]; [|reflexivity].
  destruct o; rewrite ?buf_size_blur, ?chunk_ok_blur; try reflexivity.
  destruct (buf_size t older); [apply chunk_ok_blur|reflexivity].
Qed.

Lemma C04_order_blur x tr : chk_C04_order x (map blur_ev tr) = chk_C04_order x tr.
Proof.
  apply all_rets_blur. intros t r d tl. unfold ev_C04.
  rewrite res_cover_blur, cov_of_blur, split_call_blur.
  destruct (split_call t tl) as [[o older]|]; [rewrite cov_blur|]; reflexivity.
Qed.

Lemma C04_prefix_blur x tr : chk_C04_prefix x (map blur_ev tr) = chk_C04_prefix x tr.
Proof.
  induction tr as [|ev tr IH]; [reflexivity|].
  change (map blur_ev (ev :: tr)) with (blur_ev ev :: map blur_ev tr). cbn [chk_C04_prefix].
  change (blur_ev ev :: map blur_ev tr) with (map blur_ev (ev :: tr)).
  rewrite n_pending_blur, cov_blur, IH. reflexivity.
Qed.

(** what does not look at those answers judges the histories of two configurations alike that are the same
    up to them *)
Lemma sim_blind {A} (F : list event -> A) c c' :
  (forall tr, F (map blur_ev tr) = F tr) -> sim c c' -> F (c_trace c) = F (c_trace c').
Proof. intros HF (_ & _ & _ & Ht). rewrite <- (HF (c_trace c)), Ht. apply HF. Qed.

(** the two checkers that bound what is delivered by the length of the source: what lies inside the shorter
    source lies inside the longer one *)
Lemma nodup_longer e n tr : n <= e_len e -> chk_C01_nodup (fuse e n) tr = true -> chk_C01_nodup e tr = true.
Proof.
  unfold chk_C01_nodup. rewrite cov_fuse. intros Hn H. apply andb_true_iff in H. destruct H as [H1 H2].
  rewrite H1. apply iv_within_mono with n; assumption.
Qed.

Lemma C02_longer e n tr : n <= e_len e -> chk_C02 (fuse e n) tr = true -> chk_C02 e tr = true.
Proof.
  intros Hn. apply all_rets_impl. intros t r d tl. unfold ev_C02. rewrite !forallb_forall. intros H x Hx.
  apply run_idx_ok_intro. intros Hz. destruct (run_idx_ok_elim _ _ (H x Hx) Hz) as (b & Hv & Hb & Hi).
  exists b. cbn [fuse e_len] in Hb. split; [exact Hv|]. split; [lia|exact Hi].
Qed.

(** ** every property of the fused wrapped iterators, for the wrapped iterator whose first premature None
       is the answer to call number [g]: judged with the length of the source replaced by the number of
       elements yielded before that call *)

Section AfterGap.

Variable e : env.
Hypothesis Hie : iter_env e.
Hypothesis Hh : e_hint e <> HExact.
Variable g : N.
Hypothesis Hfg : first_gap e g.
Variable progs : tid -> list op.
Hypothesis Hp : wf_progs progs.
Variable sched : list tid.
Hypothesis Hw : nowrap (c_labels (exec e (init progs) sched)).

Let tr := c_trace (exec e (init progs) sched).
Let ls := c_labels (exec e (init progs) sched).

Theorem iter_after_first_gap :
  check_prop 1 (cut e g) tr ls = true /\ check_prop 2 (cut e g) tr ls = true /\ check_prop 3 (cut e g) tr ls = true /\
  check_prop 4 (cut e g) tr ls = true /\ check_prop 6 (cut e g) tr ls = true /\ check_prop 12 (cut e g) tr ls = true.
Proof.
  pose proof (exec_cut blur_ev e g progs sched Hie Hfg Hp (or_intror blur_len) Hw) as Hs.
  assert (Hw' : nowrap (c_labels (exec (cut e g) (init progs) sched))) by (destruct Hs as (_ & _ & <- & _); exact Hw).
  (* C01--C04 hold of the run of [cut e g], and do not see the difference *)
  pose proof (iter_fused_checks (cut e g) progs sched (fuse_iter_env e _ Hie (N.le_min_l _ _)) (fuse_fused e _) Hp Hw') as H.
  cbn [check_prop] in H.
  rewrite <- (sim_blind (chk_C01_nodup _) _ _ (nodup_blur _) Hs), <- (sim_blind (chk_C01_noloss _) _ _ (noloss_blur _) Hs),
          <- (sim_blind (chk_C02 _) _ _ (C02_blur _) Hs), <- (sim_blind (chk_C03 _) _ _ (C03_blur _) Hs),
          <- (sim_blind (chk_C04_order _) _ _ (C04_order_blur _) Hs), <- (sim_blind (chk_C04_prefix _) _ _ (C04_prefix_blur _) Hs),
          <- (sim_blind has_skip _ _ has_skip_blur Hs), <- (sim_blind has_panic _ _ has_panic_blur Hs) in H.
  destruct H as (H1 & H2 & H3 & H4 & _).
  (* the rest holds of every wrapped iterator, and does not look at the length of the source *)
  unfold tr. cbn [check_prop]. unfold chk_C06. rewrite cut_fuse in *. rewrite C05_fuse, C06_stop_fuse, C12_src_fuse.
  rewrite (iter_C05 e Hie progs Hp sched Hw), (iter_C06_stop e Hie progs Hp sched Hw),
          (iter_C12_shape e Hie progs Hp sched Hw), (src_panic_ok e progs sched).
  apply andb_true_iff in H4. destruct H4 as [H4 H4p]. apply andb_true_iff in H4. destruct H4 as [_ H4o].
  apply andb_true_iff in H1. destruct H1 as [H1n H1l].
  rewrite H1n, H1l, H2, H3, H4o, H4p. repeat split; reflexivity.
Qed.

(** the properties that mention the length of the source (no loss in C01 and C12, "a chunk is short only at
    the end" in C03) *)
Theorem iter_C01_after_gap : check_prop 1 (cut e g) tr ls = true.
Proof. apply iter_after_first_gap. Qed.
Theorem iter_C03_after_gap : check_prop 3 (cut e g) tr ls = true.
Proof. apply iter_after_first_gap. Qed.
Theorem iter_C12_after_gap : check_prop 12 (cut e g) tr ls = true.
Proof. apply iter_after_first_gap. Qed.

(** a size hint that is not exact (inexact or unbounded): the run IS the run of [cut e g], configuration for
    configuration *)
Theorem iter_cut_same_run : exec (cut e g) (init progs) sched = exec e (init progs) sched.
Proof. symmetry. apply agree_same, exec_cut; auto. Qed.

End AfterGap.

Print Assumptions iter_after_first_gap.
Print Assumptions iter_cut_same_run.

(** the environment [e'] differs from [e] in the number of elements of the source (it is not larger) and in
    [e_gap] only *)
Definition same_but_len (e e' : env) : Prop :=
  e_kind e' = e_kind e /\ e_adaptor e' = e_adaptor e /\ e_start e' = e_start e /\ e_end e' = e_end e /\
  e_hint e' = e_hint e /\ e_owning e' = e_owning e /\ e_mode e' = e_mode e /\ e_crash e' = e_crash e /\
  e_len e' <= e_len e.

Section AnyIterator.

Variable e : env.
Hypothesis Hie : iter_env e.
Variable progs : tid -> list op.
Hypothesis Hp : wf_progs progs.
Variable sched : list tid.
Hypothesis Hw : nowrap (c_labels (exec e (init progs) sched)).

Let tr := c_trace (exec e (init progs) sched).
Let ls := c_labels (exec e (init progs) sched).

(** the run is the run of a fused wrapped iterator that has at most as many elements: all of them while no
    call was a gap, otherwise those yielded before the first gap *)
Lemma iter_runs_as_fuse :
  exists n, n <= e_len e /\ sim (exec e (init progs) sched) (exec (fuse e n) (init progs) sched) /\
    check_prop 1 (fuse e n) tr ls = true /\ check_prop 2 (fuse e n) tr ls = true /\ check_prop 3 (fuse e n) tr ls = true /\
    check_prop 4 (fuse e n) tr ls = true /\ check_prop 6 (fuse e n) tr ls = true /\ check_prop 12 (fuse e n) tr ls = true.
Proof.
  destruct (first_gap_dec e (s_calls (c_sh (exec e (init progs) sched)))) as [Hgf|(g & _ & Hfg)].
  - exists (e_len e). split; [apply N.le_refl|].
    pose proof (exec_gap_free e (init progs) sched (proj2 Hie) Hgf) as Ex.
    assert (Hw' : nowrap (c_labels (exec (fuse e (e_len e)) (init progs) sched))) by (rewrite Ex; exact Hw).
    destruct (iter_fused_checks _ progs sched (fuse_iter_env e _ Hie (N.le_refl _)) (fuse_fused e _) Hp Hw')
      as (C1 & C2 & C3 & C4 & C6 & _ & C12).
    rewrite Ex in *. split; [apply agree_refl|]. repeat split; assumption.
  - exists (N.min (e_len e) g). split; [apply N.le_min_l|].
    split; [apply (exec_cut blur_ev e g); auto using blur_len|apply (iter_after_first_gap e Hie g); assumption].
Qed.

(** the properties that do not mention the length of the source, or mention it only as an upper bound of the
    positions delivered, hold as stated: no position is delivered twice (the checker of C01 itself, with its
    mixed accounting by indices and values: indices and positions never differ, because nothing is delivered
    after the first None), index fidelity (C02), one linearizable cursor (C04), skip_to_end (C06) *)
Theorem iter_any_iterator :
  chk_C01_nodup e tr = true /\ check_prop 2 e tr ls = true /\ check_prop 4 e tr ls = true /\ check_prop 6 e tr ls = true /\
  chk_C12_shape tr && chk_C01_nodup e tr && chk_C02 e tr && chk_C05 e tr = true.
Proof.
  destruct iter_runs_as_fuse as (n & Hn & _ & H1 & H2 & _ & H4 & _).
  cbn [check_prop] in *. unfold chk_C06.
  apply andb_true_iff in H1. destruct H1 as [H1 _]. apply (nodup_longer e n tr Hn) in H1. apply (C02_longer e n tr Hn) in H2.
  rewrite C04_order_fuse, C04_prefix_fuse in H4.
  apply andb_true_iff in H4. destruct H4 as [H4 H4p]. apply andb_true_iff in H4. destruct H4 as [_ H4o].
  rewrite H1, H2, H4o, H4p. unfold tr.
  rewrite (iter_C06_stop e Hie progs Hp sched Hw), (iter_C12_shape e Hie progs Hp sched Hw), (iter_C05 e Hie progs Hp sched Hw).
  repeat split; reflexivity.
Qed.

Theorem iter_nodup_any : chk_C01_nodup e tr = true.
Proof. apply iter_any_iterator. Qed.
Theorem iter_C02_any : check_prop 2 e tr ls = true.
Proof. apply iter_any_iterator. Qed.
Theorem iter_C04_any : check_prop 4 e tr ls = true.
Proof. apply iter_any_iterator. Qed.
Theorem iter_C06_any : check_prop 6 e tr ls = true.
Proof. apply iter_any_iterator. Qed.
Theorem iter_C12_any : chk_C12_shape tr && chk_C01_nodup e tr && chk_C02 e tr && chk_C05 e tr = true.
Proof. apply iter_any_iterator. Qed.

(** the two runs go through the same states, with the same label streams, and the same histories up to the
    numbers the length queries answer *)
Theorem iter_runs_as_fused :
  exists e', iter_env e' /\ fused e' /\ same_but_len e e' /\
    sim (exec e (init progs) sched) (exec e' (init progs) sched) /\
    check_prop 1 e' tr ls = true /\ check_prop 2 e' tr ls = true /\ check_prop 3 e' tr ls = true /\
    check_prop 4 e' tr ls = true /\ check_prop 6 e' tr ls = true /\ check_prop 12 e' tr ls = true.
Proof.
  destruct iter_runs_as_fuse as (n & Hn & Hs & H). exists (fuse e n).
  split; [apply fuse_iter_env; assumption|]. split; [apply fuse_fused|]. split; [repeat split; exact Hn|].
  split; assumption.
Qed.

End AnyIterator.

Print Assumptions iter_any_iterator.
Print Assumptions iter_runs_as_fused.
