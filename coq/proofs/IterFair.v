(** * C09: the wrapper over an arbitrary iterator terminates under every fair schedule.

    A potential [phi] that no step increases, that every step other than a turn of the waiting loop
    decreases, and a proof that in every stretch of a schedule in which each thread takes two steps some
    step is not a turn of the waiting loop (because the ticket at the yielded counter is alive, or the
    completed flag is up).  Crash points of the wrapped iterator and of the closures are part of the
    environment and of the programs: the theorem covers the runs in which a pull panics (C18). *)
From Coq Require Import Lia ZArith.
From OCI Require Import Machine Checkers.
From OCI.proofs Require Import Base Trace ArithOk InvKnown ChkKnown IterBase IterProt InvIterA ChkIter Progress.
Open Scope N_scope.

(** a loop that has taken an element will pull once more: the pull is paid for by the element *)
Definition credit (q : req) (g : list N) : Z :=
  match q_ctx q, g with CLoop _ _, _ :: _ => 9%Z | _, _ => 0%Z end.
Definition credit_pub (q : req) (g : list N) : Z :=
  match q_ctx q with CLoop _ _ => if single q then 9%Z else credit q g | CTop => 0%Z end.

Definition wpc (p : pc) : Z :=
  match p with
  | PIdle => 0
  | PRes _ => 8
  | PChkF _ _ | PLdY _ _ => 7
  | PChkT _ _ => 6
  | PSrc q _ g => 5 + credit q g
  | PSetF q _ g => 4 + credit q g
  | PPub q _ g => 3 + credit_pub q g
  | PUnw _ _ _ => 1
  | PSkip => 1
  | PLen _ => 2
  | PLen2 _ => 1
  end%Z.

Definition wts (ts : tstate) : Z := (9 * Z.of_nat (length (t_todo ts)) + wpc (t_pc ts))%Z.
Definition wsrc (e : env) (sh : shared) : Z := (10 * Z.of_N (e_len e - s_cur sh))%Z.

(** a turn of the waiting loop *)
Definition flip (p : pc) : pc :=
  match p with PChkF q b => PLdY q b | PLdY q b => PChkF q b | _ => p end.

Fixpoint flips (k : nat) (p : pc) : pc :=
  match k with O => p | S k' => flips k' (flip p) end.

(** the next step of a thread at [p] with the program [todo] changes nothing but its own place in the
    waiting loop *)
Definition is_neutral (sh : shared) (p : pc) (todo : list op) : bool :=
  match p with
  | PIdle => match todo with [] => true | _ => false end
  | PChkF _ _ => negb (s_f sh)
  | PLdY _ b => negb (b =? s_y sh) && negb (b <? s_y sh)
  | _ => false
  end.

(** so does the one after it *)
Definition stuck (sh : shared) (p : pc) (todo : list op) : bool :=
  is_neutral sh p todo && is_neutral sh (flip p) todo.

(** a thread that neither moves nor has finished waits, the flag down, with a ticket that is not at the
    yielded counter *)
Lemma stuck_cases sh p todo : stuck sh p todo = true ->
  match ticket p with Some (b, _) => s_f sh = false /\ b <> s_y sh | None => p = PIdle /\ todo = [] end.
Proof.
  unfold stuck. destruct p as [|q|q b|q b|q b|q b g|q b g|q b g|q b g| |hm|hm]; cbn [is_neutral flip ticket]; try discriminate.
  1: destruct todo; [auto|discriminate].
  all: intros H; destruct (s_f sh); rewrite ?andb_false_r in H; [discriminate H|].
  all: split; [reflexivity|]; intros ->; rewrite N.eqb_refl in H; discriminate H.
Qed.

Lemma wpc_flip p : wpc (flip p) = wpc p.
Proof. destruct p; reflexivity. Qed.

Lemma credit_nonneg q g : (0 <= credit q g <= 9)%Z.
Proof. unfold credit. destruct (q_ctx q), g; lia. Qed.
Lemma credit_pub_nonneg q g : (0 <= credit_pub q g <= 9)%Z.
Proof. unfold credit_pub. destruct (q_ctx q); [lia|]. destruct (single q); [lia|apply credit_nonneg]. Qed.

Lemma credit_nil q : credit q [] = 0%Z.
Proof. unfold credit. destruct (q_ctx q); reflexivity. Qed.

Lemma wpc_bounds p : (0 <= wpc p <= 14)%Z.
Proof.
  destruct p as [|q|q b|q b|q b|q b g|q b g|q b g|q b g| |hm|hm]; cbn [wpc]; try lia.
  1, 2: pose proof (credit_nonneg q g); lia.
  pose proof (credit_pub_nonneg q g). lia.
Qed.

(** the weight of the program counter at which a finished pull leaves the thread is at most this *)
Definition wret (q : req) (pr : outcome pullres) : Z :=
  match pr with
  | Ok (PRGot _ _ _) => match q_ctx q with CLoop _ _ => 8%Z | CTop => 0%Z end
  | _ => 0%Z
  end.

(** and when something is published, the loop's next reservation is paid for *)
Lemma wret_paid q g pr : single q = true \/ g <> [] -> (wret q pr <= credit_pub q g)%Z.
Proof.
  intros H. pose proof (credit_pub_nonneg q g). unfold wret. destruct pr as [[|b rs cnt]|k]; try lia.
  unfold credit_pub, credit. destruct (q_ctx q); [lia|].
  destruct H as [->|H]; [lia|]. destruct (single q), g; try lia. contradiction.
Qed.

Section Fair.

Variable e : env.
Hypothesis Hk : e_kind e = KIter.

Lemma call_res_entry ts o p : call_res e ts o = CGo p -> ticket p = None /\ (wpc p <= 8)%Z.
Proof.
  intros E. pose proof (call_op_iter e Hk ts o p E) as H.
  destruct p; try contradiction; split; reflexivity || discriminate.
Qed.

(** the step of thread [t] that leads from [c], where [t] is at [p], to [c'] is a turn of the waiting loop *)
Definition turn (c : cfg) (t : tid) (p : pc) (c' : cfg) : Prop :=
  is_neutral (c_sh c) p (t_todo (c_pool c t)) = true /\ c_sh c' = c_sh c /\
  t_pc (c_pool c' t) = flip p /\ t_todo (c_pool c' t) = t_todo (c_pool c t).

(** it lowers the sum of the weights of [t] and of the source, or it is such a turn *)
Definition local_ok (c : cfg) (t : tid) (p : pc) (c' : cfg) : Prop :=
  (wts (c_pool c' t) + wsrc e (c_sh c') < 9 * Z.of_nat (length (t_todo (c_pool c t))) + wpc p + wsrc e (c_sh c))%Z \/
  turn c t p c'.

Lemma commit_local c t p sh' ts' l evs :
  s_cur sh' = s_cur (c_sh c) -> (wts ts' < 9 * Z.of_nat (length (t_todo (c_pool c t))) + wpc p)%Z ->
  local_ok c t p (commit c t sh' ts' l evs).
Proof.
  intros Hs H. left. cbn [commit c_pool c_sh]. rewrite upd_same. unfold wsrc. rewrite Hs.
  apply Z.add_lt_mono_r. exact H.
Qed.

Lemma move_local c t p sh' p' l evs :
  s_cur sh' = s_cur (c_sh c) -> (wpc p' < wpc p)%Z ->
  local_ok c t p (commit c t sh' (set_pc (c_pool c t) p') l evs).
Proof. intros Hs H. apply commit_local; [exact Hs|]. unfold wts. cbn [set_pc t_pc t_todo]. lia. Qed.

(** the wrapped iterator yields an element: the source pays 10, more than any program counter after
    [PSrc] can gain *)
Lemma take_local c t p sh' p' l evs :
  s_cur sh' = s_cur (c_sh c) + 1 -> s_cur (c_sh c) < e_len e -> (5 <= wpc p)%Z ->
  local_ok c t p (commit c t sh' (set_pc (c_pool c t) p') l evs).
Proof.
  intros Hs Hlt H. left. cbn [commit c_pool c_sh]. rewrite upd_same.
  unfold wts, wsrc. cbn [set_pc t_pc t_todo]. pose proof (wpc_bounds p'). lia.
Qed.

Lemma turn_local c t p l :
  is_neutral (c_sh c) p (t_todo (c_pool c t)) = true ->
  local_ok c t p (commit c t (c_sh c) (set_pc (c_pool c t) (flip p)) l []).
Proof. right. unfold turn. cbn [commit c_pool]. rewrite upd_same. auto. Qed.

(** finishing a pull: the thread is idle again, or its loop goes on from [PRes] with its next pull -- which
    happens only when the pull delivered something *)
Lemma deliver_w ts q pr ts' o :
  deliver e ts q pr = (ts', o) -> t_todo ts' = t_todo ts /\ (wpc (t_pc ts') <= wret q pr)%Z.
Proof.
  unfold deliver, wret. intros E.
  destruct (q_ctx q) as [|l cr], pr as [[|b rs cnt]|k]; try (injection E as <- <-; split; [reflexivity|cbn [t_pc set_pc wpc]; lia]).
  - destruct (deliver_top_eq e Hk ts q b rs cnt) as (ts2 & d & E2 & Hp & _ & Ht & _). rewrite E2 in E.
    injection E as <- <-. rewrite Hp. split; [exact Ht|cbn [wpc]; lia].
  - unfold deliver_loop in E. destruct (loop_invoke l cr (total_cnt (t_acc ts)) rs cnt) as [inv [used|]];
      injection E as <- <-; (split; [reflexivity|cbn [t_pc wpc]; lia]).
Qed.

Lemma finish_local c t p sh' l q pr :
  s_cur sh' = s_cur (c_sh c) -> (wret q pr < wpc p)%Z ->
  local_ok c t p (finish e c t sh' (c_pool c t) l q pr).
Proof.
  intros Hs H. unfold finish. destruct (deliver e (c_pool c t) q pr) as [ts' o] eqn:E.
  destruct (deliver_w _ _ _ _ _ E) as [Ht Hw]. apply commit_local; [exact Hs|]. unfold wts. rewrite Ht. lia.
Qed.

(** the tickets cover [yielded, reserved) as long as the completed flag is down *)
Definition covered_by (c : cfg) (p : N) : Prop :=
  exists t b n, ticket (t_pc (c_pool c t)) = Some (b, n) /\ b <= p < b + n.

Definition IInvC (c : cfg) : Prop :=
  s_f (c_sh c) = false -> forall p, s_y (c_sh c) <= p < s_c (c_sh c) -> covered_by c p.

Definition holds (p : pc) (x : N) : Prop := exists b n, ticket p = Some (b, n) /\ b <= x < b + n.

(** the step of thread [t] that leads from [c], where [t] is at [p], to [c'] keeps the cover *)
Definition cover_ok (c : cfg) (t : tid) (p : pc) (c' : cfg) : Prop :=
  t_pc (c_pool c t) = p -> Prot (e_len e) (s_c (c_sh c)) (s_y (c_sh c)) (s_cur (c_sh c)) (pcs_of c) ->
  istep_nowrap c t -> IInvC c -> IInvC c'.

Lemma iC_flag c t p c' : s_f (c_sh c') = true -> cover_ok c t p c'.
Proof. congruence. Qed.

Lemma iC_finish c t p sh' l q pr : s_f sh' = true -> cover_ok c t p (finish e c t sh' (c_pool c t) l q pr).
Proof. intros H. unfold finish. destruct (deliver _ _ _ _). apply iC_flag. exact H. Qed.

(** a step of [t] that leaves the flag down keeps the cover if the window [yielded, reserved) grows only
    into the new ticket of [t], and what the ticket of [t] loses is outside the new window *)
Lemma iC_window c t sh' ts' l evs :
  IInvC c -> (s_f sh' = false -> s_f (c_sh c) = false) ->
  (forall x, s_y sh' <= x < s_c sh' -> holds (t_pc ts') x \/ s_y (c_sh c) <= x < s_c (c_sh c)) ->
  (forall x, s_y sh' <= x < s_c sh' -> holds (t_pc (c_pool c t)) x -> holds (t_pc ts') x) ->
  IInvC (commit c t sh' ts' l evs).
Proof.
  intros I Ef Hwin Hlost Hf x Hx. unfold covered_by. cbn [commit c_pool].
  destruct (Hwin x Hx) as [Hnew|Hold]; [exists t; rewrite upd_same; exact Hnew|].
  destruct (I (Ef Hf) x Hold) as (u & Hu). exists u.
  destruct (Nat.eq_dec u t) as [->|Hne]; [rewrite upd_same; apply Hlost; assumption|rewrite upd_other by assumption; exact Hu].
Qed.

Lemma iC_keep c t p sh' ts' l evs :
  s_c sh' = s_c (c_sh c) -> s_y sh' = s_y (c_sh c) -> s_f sh' = s_f (c_sh c) -> ticket (t_pc ts') = ticket p ->
  cover_ok c t p (commit c t sh' ts' l evs).
Proof.
  intros Ec Ey Ef Et Hpc _ _ I. apply iC_window; [exact I|congruence|rewrite Ec, Ey; auto|].
  unfold holds. rewrite Hpc, Et. auto.
Qed.

(** the reservation is the new ticket *)
Lemma iC_reserve c t q sh' ts' l evs :
  s_c sh' = wadd (s_c (c_sh c)) (pub_incr q) -> s_y sh' = s_y (c_sh c) -> s_f sh' = s_f (c_sh c) ->
  ticket (t_pc ts') = Some (s_c (c_sh c), pub_incr q) ->
  cover_ok c t (PRes q) (commit c t sh' ts' l evs).
Proof.
  intros Ec Ey Ef Et Hpc _ Hw I. unfold istep_nowrap in Hw. rewrite Hpc in Hw.
  apply iC_window; [exact I|congruence|..]; rewrite Ec, ?Hpc; unfold wadd; rewrite N.mod_small by exact Hw; intros x Hx.
  - destruct (N.lt_ge_cases x (s_c (c_sh c))); [right; lia|left]. exists (s_c (c_sh c)), (pub_incr q). split; [exact Et|lia].
  - intros (b & n & Tn & _). discriminate Tn.
Qed.

(** the ticket that is published begins at the yielded counter *)
Lemma iC_publish c t q b g sh' ts' l evs :
  s_c sh' = s_c (c_sh c) -> s_y sh' = wadd (s_y (c_sh c)) (pub_incr q) -> s_f sh' = s_f (c_sh c) ->
  cover_ok c t (PPub q b g) (commit c t sh' ts' l evs).
Proof.
  intros Ec Ey Ef Hpc P Hw I. unfold istep_nowrap in Hw. rewrite Hpc in Hw.
  pose proof (p_crit _ _ _ _ _ P t _ _ (f_equal in_crit Hpc) (f_equal ticket Hpc)) as Hb.
  apply iC_window; [exact I|congruence|..]; rewrite Ey, ?Hpc; unfold wadd; rewrite N.mod_small by exact Hw; intros x Hx.
  - right. lia.
  - intros (b' & n' & Tn & Hb'). injection Tn as <- <-. lia.
Qed.

(** a ticket is never below the yielded counter *)
Lemma iC_stale c t q b c' : b < s_y (c_sh c) -> cover_ok c t (PLdY q b) c'.
Proof. intros Hlt Hpc P. pose proof (p_tk _ _ _ _ _ P t _ _ (f_equal ticket Hpc)). lia. Qed.

(* a definition, so that the step stands in the goal, and is unfolded, once: in each case of [step_effect]
   the first half is about the weights, the second about the cover *)
Definition step_ok (c : cfg) (t : tid) (p : pc) (c' : cfg) : Prop := local_ok c t p c' /\ cover_ok c t p c'.

Lemma step_effect c t : step_ok c t (t_pc (c_pool c t)) (step e c t).
Proof.
  unfold step. rewrite Hk.
  destruct (t_pc (c_pool c t)) as [|q|q b|q b|q b|q b got|q b got|q b got|q b got| |hm|hm] eqn:Hpc.
  - destruct (t_todo (c_pool c t)) as [|o rest] eqn:Htodo.
    + split; [right; unfold turn; rewrite Hpc, Htodo; repeat split|intros _ _ _ I; exact I].
    + unfold call. pose proof (call_res_entry (c_pool c t) o) as Hgo.
      destruct (call_res e (c_pool c t) o) as [p|bf r d]; [destruct (Hgo p eq_refl) as (Tp & Hw8)|];
        (split; [apply commit_local; [reflexivity|]; unfold wts; cbn [t_pc t_todo wpc]; rewrite Htodo; cbn [length]; lia
                |apply iC_keep; trivial]).
  - split; [apply move_local|apply iC_reserve]; reflexivity.
  - destruct (s_f (c_sh c)) eqn:Ef.
    + split; [apply finish_local; reflexivity|apply iC_finish; exact Ef].
    + split; [apply turn_local; cbn [is_neutral]; rewrite Ef|apply iC_keep]; reflexivity.
  - destruct (b =? s_y (c_sh c)) eqn:E1; [split; [apply move_local|apply iC_keep]; reflexivity|].
    destruct (b <? s_y (c_sh c)) eqn:E2.
    + (* does not happen *) split; [apply finish_local; reflexivity|apply iC_stale, N.ltb_lt, E2].
    + split; [apply turn_local; cbn [is_neutral]; rewrite E1, E2|apply iC_keep]; reflexivity.
  - destruct (s_f (c_sh c)) eqn:Ef; [split; [apply finish_local; reflexivity|apply iC_finish; exact Ef]|].
    split; [|apply iC_keep; reflexivity].
    apply move_local; [reflexivity|]. cbn [wpc]. rewrite credit_nil. reflexivity.
  - (* a call of the wrapped iterator: an element pays 10; a panic or None costs the thread at least 1 *)
    pose proof (credit_nonneg q got).
    destruct (crashes_now e (c_sh c)); [split; [apply move_local; [reflexivity|cbn [wpc]; lia]|apply iC_keep; reflexivity]|].
    destruct (src_next_cases e (c_sh c)) as [[-> Hlt]|[-> _]].
    + assert (5 <= wpc (PSrc q b got))%Z by (cbn [wpc]; lia).
      destruct (q_mode q); [|destruct (_ =? q_n q)..]; (split; [apply take_local; trivial|apply iC_keep; reflexivity]).
    + pose proof (credit_nil q).
      destruct (q_mode q); (split; [apply move_local; [reflexivity|cbn [wpc]; lia]|apply iC_keep; reflexivity]).
  - pose proof (credit_nonneg q got).
    destruct (q_mode q) eqn:Em; [split; [apply finish_local; [reflexivity|cbn [wpc wret]; lia]|apply iC_finish; reflexivity]|..];
      (split; [|apply iC_flag; reflexivity]); (apply move_local; [reflexivity|]);
      cbn [wpc]; unfold credit_pub, single; rewrite Em; destruct (q_ctx q); lia.
  - (* publishing: the thread is idle afterwards, or its loop goes on from [PRes] (8), which happens only
       after a pull that delivered, and then [credit_pub] pays *)
    assert (Hgo : forall l pr, (wret q pr <= credit_pub q got)%Z ->
              step_ok c t (PPub q b got) (finish e c t (with_y (c_sh c) (wadd (s_y (c_sh c)) (pub_incr q))) (c_pool c t) l q pr)).
    { intros l pr H. split; [apply finish_local; [reflexivity|]; cbn [wpc]; lia|].
      unfold finish. destruct (deliver _ _ _ _). apply iC_publish; reflexivity. }
    pose proof (credit_pub_nonneg q got).
    destruct (q_mode q) eqn:Em.
    1: { apply Hgo, wret_paid. left. unfold single. rewrite Em. reflexivity. }
    all: destruct (s_y (c_sh c) =? b); [destruct (rev got) eqn:Er|]; apply Hgo; try (cbn [wret]; lia).
    all: apply wret_paid; right; intros ->; discriminate Er.
  - destruct (q_ctx q); [destruct (q_mode q); [| |destruct (t_buf (c_pool c t)) as [bf|]; [destruct (write_slots _ _)|]]|];
      (split; [apply commit_local; [reflexivity|]; unfold wts; cbn [t_pc t_todo wpc]; lia|apply iC_flag; reflexivity]).
  - split; [apply move_local|apply iC_flag]; reflexivity.
  - destruct (s_f (c_sh c)); [|destruct (e_hint e)]; (split; [apply move_local|apply iC_keep]; reflexivity).
  - split; [apply move_local|apply iC_keep]; reflexivity.
Qed.

Variable L : list tid.
Hypothesis NDL : NoDup L.

Lemma iC_step c t : IInvA e L c -> IInvC c -> istep_nowrap c t -> IInvC (step e c t).
Proof. intros A I Hw. exact (proj2 (step_effect c t) eq_refl (a_prot e L c A) Hw I). Qed.

Lemma iC_init progs : IInvC (init progs).
Proof. intros _ p Hp. cbn [init c_sh s_c] in Hp. lia. Qed.

Definition phi (c : cfg) : Z := (sumZ (fun t => wts (c_pool c t)) L + wsrc e (c_sh c))%Z.

Lemma phi_nonneg c : (0 <= phi c)%Z.
Proof.
  unfold phi, wsrc. assert (0 <= sumZ (fun t => wts (c_pool c t)) L)%Z; [|lia].
  apply sumZ_nonneg. intros t _. unfold wts. pose proof (wpc_bounds (t_pc (c_pool c t))). lia.
Qed.

Lemma phi_step c t : In t L ->
  phi (step e c t) = (phi c - wts (c_pool c t) - wsrc e (c_sh c) + wts (c_pool (step e c t) t) + wsrc e (c_sh (step e c t)))%Z.
Proof.
  intros Hin. destruct (step_commit e c t) as [->|(ts' & l & evs & _ & _ & ->)]; [lia|].
  unfold phi. cbn [commit c_pool]. rewrite upd_same.
  rewrite (sumZ_ext _ (upd (fun u => wts (c_pool c u)) t (wts ts'))).
  - rewrite sumZ_upd by assumption. lia.
  - intros u _. unfold upd. destruct (Nat.eqb u t); reflexivity.
Qed.

Lemma step_phi c t : In t L ->
  (phi (step e c t) < phi c)%Z \/ (phi (step e c t) = phi c /\ turn c t (t_pc (c_pool c t)) (step e c t)).
Proof.
  intros Hin. rewrite (phi_step c t Hin). unfold wts at 1.
  destruct (proj1 (step_effect c t)) as [H|Ht]; [left; lia|right]. split; [|exact Ht].
  destruct Ht as (_ & Hsh & Hp & Ht). unfold wts. rewrite Hsh, Hp, Ht, wpc_flip. lia.
Qed.

Lemma exec_phi_le blk c : Forall (fun u => In u L) blk -> (phi (exec e c blk) <= phi c)%Z.
Proof.
  intros Hb. apply (exec_inv e (fun _ => True) (fun u => In u L) (fun c' => (phi c' <= phi c)%Z));
    [|exact Hb|lia|apply Forall_forall; trivial].
  intros c0 u Hu H0 _. destruct (step_phi c0 u Hu) as [H|(H & _)]; lia.
Qed.

(** a stretch of the schedule lowers the potential if it schedules more than [k] times a thread whose
    [k]-th step from now, after [k] turns of its waiting loop, would not be one more turn *)
Lemma stretch_decr blk : forall k c m, Forall (fun u => In u L) blk ->
  (k < count_occ Nat.eq_dec blk m)%nat ->
  is_neutral (c_sh c) (flips k (t_pc (c_pool c m))) (t_todo (c_pool c m)) = false ->
  (phi (exec e c blk) < phi c)%Z.
Proof.
  induction blk as [|u r IH]; intros k c m Hb Hk' Hm; [cbn in Hk'; lia|].
  inversion Hb as [|? ? Hu Hr]; subst. rewrite exec_cons. pose proof (exec_phi_le r (step e c u) Hr).
  destruct (step_phi c u Hu) as [H0|(<- & Hn & Hsh & Hp & Ht)]; [lia|].
  cbn [count_occ] in Hk'. destruct (Nat.eq_dec u m) as [->|Hne].
  - destruct k as [|k]; [cbn [flips] in Hm; congruence|].
    apply (IH k _ m Hr); [lia|]. rewrite Hsh, Hp, Ht. exact Hm.
  - apply (IH k _ m Hr Hk'). rewrite Hsh, (step_pool_other e c u m) by congruence. exact Hm.
Qed.

End Fair.

Section FairMain.

Variable e : env.
Hypothesis Hk : e_kind e = KIter.
Variable L : list tid.
Hypothesis NDL : NoDup L.

Definition done (ts : tstate) : Prop := t_pc ts = PIdle /\ t_todo ts = [].
Definition all_done (c : cfg) : Prop := forall t, In t L -> done (c_pool c t).

(** if no thread moves at its next step or at the one after it, every thread has finished: a waiting
    thread keeps the flag down and holds a ticket, so the yielded counter is inside the window and
    covered by the ticket of a thread, which is then not waiting *)
Lemma mover c :
  IInvA e L c -> IInvC c ->
  (forall m, In m L -> stuck (c_sh c) (t_pc (c_pool c m)) (t_todo (c_pool c m)) = true) -> all_done c.
Proof.
  intros A I Hst t Ht. pose proof (a_prot e L c A) as P.
  pose proof (stuck_cases _ _ _ (Hst t Ht)) as Hw.
  destruct (ticket (t_pc (c_pool c t))) as [[b n]|] eqn:Tt; [exfalso|exact Hw]. destruct Hw as (Hf & _).
  pose proof (p_tk _ _ _ _ _ P t b n Tt).
  destruct (I Hf (s_y (c_sh c))) as (m & b' & n' & Tm & Hb'); [lia|].
  pose proof (p_tk _ _ _ _ _ P m b' n' Tm).
  assert (Hm : In m L).
  { destruct (in_dec Nat.eq_dec m L) as [Hi|Hni]; [exact Hi|]. pose proof (a_out e L c A m Hni) as Hidle.
    unfold is_idle in Hidle. destruct (t_pc (c_pool c m)); discriminate. }
  pose proof (stuck_cases _ _ _ (Hst m Hm)) as Hw. rewrite Tm in Hw. lia.
Qed.

Lemma block_progress c blk :
  IInvA e L c -> IInvC c -> Forall (fun u => In u L) blk ->
  (forall t, In t L -> (2 <= count_occ Nat.eq_dec blk t)%nat) ->
  (phi e L (exec e c blk) < phi e L c)%Z \/ all_done c.
Proof.
  intros A I Hb Hfair.
  destruct (Z.lt_ge_cases (phi e L (exec e c blk)) (phi e L c)) as [Hlt|Hge]; [left; exact Hlt|right].
  apply (mover c A I). intros m Hm. destruct (stuck _ _ _) eqn:Hs; [reflexivity|exfalso].
  specialize (Hfair m Hm). apply andb_false_iff in Hs. apply Z.le_ngt in Hge. apply Hge.
  destruct Hs as [H|H]; [apply (stretch_decr e Hk L NDL blk 0 c m)|apply (stretch_decr e Hk L NDL blk 1 c m)];
    try assumption; lia.
Qed.

Lemma all_done_exec blk c : all_done c -> Forall (fun u => In u L) blk -> exec e c blk = c.
Proof.
  intros Hd Hb. apply (exec_inv e (fun _ => True) (fun u => In u L) (fun c' => c' = c));
    [|exact Hb|reflexivity|apply Forall_forall; trivial].
  intros c0 u Hu -> _. destruct (Hd u Hu) as (Hp & Ht). apply step_idle_nil; assumption.
Qed.

Lemma inv_exec blk c : IInvA e L c -> IInvC c -> Forall (fun u => In u L) blk ->
  nowrap (c_labels (exec e c blk)) -> IInvA e L (exec e c blk) /\ IInvC (exec e c blk).
Proof.
  intros A I Hb. apply (exec_inv e label_nowrap (fun u => In u L) (fun c => IInvA e L c /\ IInvC c)); [|exact Hb|split; assumption].
  intros c0 u Hu (A0 & I0) Hn. apply (istep_labels e Hk) in Hn.
  split; [apply (iA_step e Hk L NDL)|apply (iC_step e Hk L)]; assumption.
Qed.

Lemma rounds blocks : forall c, IInvA e L c -> IInvC c ->
  (forall blk, In blk blocks -> Forall (fun u => In u L) blk /\ forall t, In t L -> (2 <= count_occ Nat.eq_dec blk t)%nat) ->
  nowrap (c_labels (exec e c (concat blocks))) ->
  all_done (exec e c (concat blocks)) \/
  (phi e L (exec e c (concat blocks)) <= phi e L c - Z.of_nat (length blocks))%Z.
Proof.
  induction blocks as [|blk rest IH]; intros c A I Hfair Hw.
  - right. cbn [concat length exec fold_left]. lia.
  - destruct (Hfair blk (or_introl eq_refl)) as (Hb & Hf).
    destruct (block_progress c blk A I Hb Hf) as [Hlt|Hd].
    + cbn [concat] in *. rewrite exec_app in *.
      destruct (inv_exec blk c A I Hb (nowrap_exec_prefix e _ _ Hw)) as (A1 & I1).
      destruct (IH (exec e c blk) A1 I1) as [H|H]; [intros b Hb'; apply Hfair; right; exact Hb'|exact Hw|left; exact H|right].
      cbn [length]. lia.
    + left. rewrite (all_done_exec _ c Hd); [exact Hd|].
      apply Forall_concat, Forall_forall. intros b Hb'. apply Hfair, Hb'.
Qed.

End FairMain.

(** every call returns under every fair schedule: after [sched], let the schedule go on with any
    sequence of stretches in each of which every thread takes at least two steps; once there have been
    more stretches than the potential of the state reached by [sched], every thread has finished its
    program and no call is pending.  The wrapped iterator may panic at any call ([e_crash]), the
    closures of the loops at any invocation. *)
Theorem iter_fair_termination : forall e, iter_env e -> forall progs, wf_progs progs ->
  forall sched blocks,
  let L := nodup Nat.eq_dec (sched ++ concat blocks) in
  nowrap (c_labels (exec e (init progs) (sched ++ concat blocks))) ->
  (forall blk, In blk blocks -> forall t, In t L -> (2 <= count_occ Nat.eq_dec blk t)%nat) ->
  (phi e L (exec e (init progs) sched) < Z.of_nat (length blocks))%Z ->
  (forall t, In t L -> t_pc (c_pool (exec e (init progs) (sched ++ concat blocks)) t) = PIdle /\
                       t_todo (c_pool (exec e (init progs) (sched ++ concat blocks)) t) = []) /\
  n_pending (c_trace (exec e (init progs) (sched ++ concat blocks))) = 0%Z.
Proof.
  intros e (_ & Hk) progs Hp sched blocks L Hw Hfair Hphi.
  assert (NDL : NoDup L) by apply NoDup_nodup.
  assert (Hin : Forall (fun u => In u L) (sched ++ concat blocks)).
  { apply Forall_forall. intros u Hu. apply nodup_In. exact Hu. }
  apply Forall_app in Hin. destruct Hin as (Hs & Hc). rewrite exec_app in *.
  destruct (inv_exec e Hk L NDL sched (init progs) (iA_init e L progs Hp) (iC_init progs) Hs (nowrap_exec_prefix e _ _ Hw)) as (A & I).
  destruct (inv_exec e Hk L NDL (concat blocks) _ A I Hc Hw) as (A2 & _).
  assert (Hall : all_done L (exec e (exec e (init progs) sched) (concat blocks))).
  { destruct (rounds e Hk L NDL blocks _ A I) as [H|H]; [|exact Hw|exact H|].
    - intros blk Hb. split; [|apply Hfair; exact Hb]. apply Forall_concat in Hc. rewrite Forall_forall in Hc. apply Hc, Hb.
    - pose proof (phi_nonneg e L (exec e (exec e (init progs) sched) (concat blocks))). unfold tid in *. lia. }
  split; [exact Hall|].
  rewrite (a_pend e L _ A2). clear - Hall.
  induction L as [|a l IH]; [reflexivity|]. cbn [sumZ]. rewrite IH by (intros t Ht; apply Hall; right; exact Ht).
  destruct (Hall a (or_introl eq_refl)) as (Hp & _). unfold pendZ, is_idle. rewrite Hp. reflexivity.
Qed.

(** non-vacuity: a run with a panicking wrapped iterator, a loop and a chunk pull that meets every
    hypothesis of the theorem *)
Definition label_nowrapb (l : label) : bool :=
  match l with LAtom _ _ AAdd n old _ => old + n <? W | _ => true end.
Lemma nowrapb_ok ls : forallb label_nowrapb ls = true -> nowrap ls.
Proof.
  intros H. apply Forall_forall. intros l Hl. rewrite forallb_forall in H. specialize (H l Hl).
  destruct l as [|t s [] n old o| |]; try exact Logic.I. apply N.ltb_lt, H.
Qed.

Example fair_termination_applies :
  let e := {| e_kind := KIter; e_adaptor := ANone; e_len := 4; e_start := 0; e_end := 0; e_hint := HInexact;
              e_owning := true; e_mode := Wrapping; e_crash := Some 3; e_gap := fun _ => false |} in
  let progs := fun t => match t with 0%nat => [Loop LForEach 2 None] | 1%nat => [Next NVal; Chunk 2 1] | _ => [] end in
  let sched := [0; 1; 0; 1; 1]%nat in
  let blocks := repeat [0; 1; 1; 0]%nat 80 in
  let L := nodup Nat.eq_dec (sched ++ concat blocks) in
  iter_env e /\ wf_progs progs /\
  nowrap (c_labels (exec e (init progs) (sched ++ concat blocks))) /\
  (forall blk, In blk blocks -> forall t, In t L -> (2 <= count_occ Nat.eq_dec blk t)%nat) /\
  (phi e L (exec e (init progs) sched) < Z.of_nat (length blocks))%Z /\
  has_panic (c_trace (exec e (init progs) (sched ++ concat blocks))) = true.
Proof.
  split; [split; [|reflexivity]; unfold wf_env; cbn; rewrite W_val; lia|].
  split; [intros t; destruct t as [|[|t]]; repeat constructor; cbn; rewrite W_val; lia|].
  split; [apply nowrapb_ok; vm_compute; reflexivity|].
  split.
  - intros blk Hb t Ht. apply repeat_spec in Hb. subst blk.
    vm_compute in Ht. destruct Ht as [<-|[<-|[]]]; vm_compute; lia.
  - split; vm_compute; reflexivity.
Qed.
