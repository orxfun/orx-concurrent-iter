(** The recorded history only grows: a step never rewrites or retracts an event or a label that an
    earlier step recorded.  Every theorem of the development that is stated about the trace of [exec]
    for all schedules therefore speaks about every intermediate point of every run as well: the history
    at an earlier point is a suffix (the lists grow at the head) of the history at any later point. *)
From Coq Require Import List ZArith Lia.
From OCI Require Import Machine Checkers.
From OCI.proofs Require Import Trace Progress.
Import ListNotations.

Theorem history_append_only : forall e c a b,
  exists evs ls,
    c_trace (exec e c (a ++ b)) = evs ++ c_trace (exec e c a) /\
    c_labels (exec e c (a ++ b)) = ls ++ c_labels (exec e c a).
Proof. intros e c a b. rewrite exec_app. apply exec_history. Qed.

Theorem answers_are_never_retracted : forall e c a b t,
  (rets t (c_trace (exec e c a)) <= rets t (c_trace (exec e c (a ++ b))))%nat.
Proof. intros e c a b t. rewrite exec_app. apply exec_rets_mono. Qed.

(** ** granularity: one step of thread [u] records at most one label -- one atomic access or one call of the
    wrapped iterator -- and that label carries [u] *)
Definition lbl_tid (l : label) : tid :=
  match l with LCall t | LAtom t _ _ _ _ _ | LSrc t _ | LSrcPanic t => t end.

Lemma access_tid u sh l : access u sh l -> lbl_tid l = u.
Proof. destruct l as [t|t [] [] arg ret o|t r|t]; cbn [access lbl_tid]; tauto. Qed.

Lemma step_one_label e c u :
  c_labels (step e c u) = c_labels c \/
  exists l, c_labels (step e c u) = l :: c_labels c /\ lbl_tid l = u.
Proof.
  destruct (step_commit e c u) as [->|(ts & l & evs & Ha & _ & ->)]; [left; reflexivity|].
  right. exists l. split; [reflexivity|exact (access_tid u _ l Ha)].
Qed.

Theorem labels_belong_to_scheduled_threads : forall e s c,
  exists ls, c_labels (exec e c s) = ls ++ c_labels c /\
             Forall (fun l => In (lbl_tid l) s) ls /\ (length ls <= length s)%nat.
Proof.
  intros e s. induction s as [|u s IH]; intros c.
  - exists []. repeat split; constructor.
  - rewrite exec_cons. destruct (IH (step e c u)) as (ls & Hl & Hf & Hn).
    assert (Hf' : Forall (fun l => In (lbl_tid l) (u :: s)) ls).
    { eapply Forall_impl; [|exact Hf]. intros a Ha. right. exact Ha. }
    destruct (step_one_label e c u) as [Heq|(l & Heq & Hu)]; rewrite Heq in Hl.
    + exists ls. cbn [length]. repeat split; [exact Hl|exact Hf'|lia].
    + exists (ls ++ [l]). rewrite <- app_assoc, app_length, Nat.add_comm. repeat split; [exact Hl| |cbn; lia].
      apply Forall_app. split; [exact Hf'|]. repeat constructor. symmetry. exact Hu.
Qed.

Corollary run_labels_belong_to_scheduled_threads : forall e progs sched,
  Forall (fun l => In (lbl_tid l) sched) (c_labels (exec e (init progs) sched)) /\
  (length (c_labels (exec e (init progs) sched)) <= length sched)%nat.
Proof.
  intros e progs sched.
  destruct (labels_belong_to_scheduled_threads e sched (init progs)) as (ls & -> & Hf & Hn).
  cbn [init c_labels]. rewrite app_nil_r. split; assumption.
Qed.

(** the premise-free statements are not vacuous: a run that records one label per step *)
Example history_example :
  let e := {| e_kind := KSlice; e_adaptor := ANone; e_len := 3; e_start := 0; e_end := 0; e_hint := HExact;
              e_owning := false; e_mode := Checked; e_crash := None; e_gap := fun _ => false |} in
  length (c_labels (exec e (init (fun _ => [Next NIdVal])) [0; 1; 0; 1]%nat)) = 4%nat.
Proof. vm_compute. reflexivity. Qed.

(** ** frame: a thread that takes no step keeps its local state (program counter, remaining program, buffer,
    accumulator), whatever the other threads do -- a thread suspended for arbitrarily long resumes exactly
    where it stopped *)
Theorem unscheduled_thread_untouched : forall e s c t,
  ~ In t s -> c_pool (exec e c s) t = c_pool c t.
Proof.
  intros e s. induction s as [|u s IH]; intros c t Hn; [reflexivity|].
  rewrite exec_cons, IH by (intros H; apply Hn; right; exact H).
  apply step_pool_other. intros ->. apply Hn. left. reflexivity.
Qed.

(** ** the shared state along a run

    A step changes the shared state by what its label says ([Trace.sh_after]); each statement below is a fact
    about one label, lifted to steps by [Trace.step_commit] and to runs by [exec_shared]. *)
Open Scope N_scope.

Definition lbl_is_src (l : label) : bool := match l with LSrc _ _ | LSrcPanic _ => true | _ => false end.
Fixpoint n_src (ls : list label) : N :=
  match ls with [] => 0 | l :: tl => (if lbl_is_src l then 1 else 0) + n_src tl end.

Definition lbl_yields (l : label) : bool := match l with LSrc _ (Some _) => true | _ => false end.
Fixpoint n_yield (ls : list label) : N :=
  match ls with [] => 0 | l :: tl => (if lbl_yields l then 1 else 0) + n_yield tl end.

Lemma sh_after_f l sh : s_f sh = true -> s_f (sh_after l sh) = true.
Proof. intros H. destruct l as [t|t [] [] arg ret o|t [p|]|t]; try exact H; reflexivity. Qed.

Lemma sh_after_cur l sh : s_cur (sh_after l sh) = s_cur sh + (if lbl_yields l then 1 else 0).
Proof. destruct l as [t|t [] [] arg ret o|t [p|]|t]; cbn [sh_after lbl_yields with_c with_y with_f with_src s_cur]; lia. Qed.

Lemma sh_after_calls l sh : s_calls (sh_after l sh) = s_calls sh + (if lbl_is_src l then 1 else 0).
Proof. destruct l as [t|t [] [] arg ret o|t [p|]|t]; cbn [sh_after lbl_is_src with_c with_y with_f with_src s_calls]; lia. Qed.

Lemma exec_shared e (P : shared -> list label -> Prop) :
  (forall u sh ls l, access u sh l -> P sh ls -> P (sh_after l sh) (l :: ls)) ->
  forall s c, P (c_sh c) (c_labels c) -> P (c_sh (exec e c s)) (c_labels (exec e c s)).
Proof.
  intros Hl s. induction s as [|u s IH]; intros c H; [exact H|].
  rewrite exec_cons. apply IH. destruct (step_commit e c u) as [->|(ts & l & evs & Ha & _ & ->)]; [exact H|].
  exact (Hl u _ _ l Ha H).
Qed.

(** *** the completed flag is never reset and the number of elements the wrapped iterator has yielded never
    decreases between any two points of any run (any kind, any configuration) *)
Theorem completed_flag_is_permanent : forall e c a b,
  s_f (c_sh (exec e c a)) = true -> s_f (c_sh (exec e c (a ++ b))) = true.
Proof.
  intros e c a b. rewrite exec_app.
  apply (exec_shared e (fun sh _ => s_f sh = true)). intros _ sh _ l _. apply sh_after_f.
Qed.

Theorem source_cursor_never_rewinds : forall e c a b,
  s_cur (c_sh (exec e c a)) <= s_cur (c_sh (exec e c (a ++ b))).
Proof.
  intros e c a b. rewrite exec_app.
  apply (exec_shared e (fun sh _ => s_cur (c_sh (exec e c a)) <= s_cur sh)); [|lia].
  intros _ sh _ l _ H. rewrite sh_after_cur. lia.
Qed.

(** ** stuttering: scheduling threads that have finished their programs changes nothing -- shared state, local
    states, trace and label stream stay what they are (nothing happens behind the callers' backs once every
    call has returned) *)
Theorem finished_threads_do_nothing : forall e s c,
  (forall t, In t s -> t_pc (c_pool c t) = PIdle /\ t_todo (c_pool c t) = []) -> exec e c s = c.
Proof.
  intros e s. induction s as [|u s IH]; intros c H; [reflexivity|].
  rewrite exec_cons.
  assert (Hs : step e c u = c).
  { destruct (H u (or_introl eq_refl)) as [H1 H2]. unfold step. rewrite H1, H2. reflexivity. }
  rewrite Hs. apply IH. intros t Ht. apply H. right. exact Ht.
Qed.

(** ** the wrapped iterator yields at most one element per call of its next(): the count of elements it has
    yielded never exceeds the count of calls made to it, in every reachable state (no hypotheses on the
    environment, the programs or the schedule) *)
Lemma access_cur_le_calls (u : tid) sh (ls : list label) l :
  access u sh l -> s_cur sh <= s_calls sh -> s_cur (sh_after l sh) <= s_calls (sh_after l sh).
Proof.
  intros _ H. rewrite sh_after_cur, sh_after_calls.
  destruct l as [t|t s k arg ret o|t [p|]|t]; cbn [lbl_yields lbl_is_src]; lia.
Qed.

Theorem yields_at_most_once_per_call : forall e progs sched,
  s_cur (c_sh (exec e (init progs) sched)) <= s_calls (c_sh (exec e (init progs) sched)).
Proof.
  intros e progs sched.
  apply (exec_shared e (fun sh _ => s_cur sh <= s_calls sh) access_cur_le_calls). reflexivity.
Qed.

(** ** the ghost counter [s_calls] of the model is the number of source labels of the label stream -- the
    stream that the correspondence check compares with the crate's, call by call *)
Lemma access_calls_count (u : tid) sh ls l :
  access u sh l -> s_calls sh = n_src ls -> s_calls (sh_after l sh) = n_src (l :: ls).
Proof. intros _ H. rewrite sh_after_calls, H. cbn [n_src]. lia. Qed.

Theorem calls_are_the_source_labels : forall e progs sched,
  s_calls (c_sh (exec e (init progs) sched)) = n_src (c_labels (exec e (init progs) sched)).
Proof.
  intros e progs sched.
  apply (exec_shared e (fun sh ls => s_calls sh = n_src ls) access_calls_count). reflexivity.
Qed.

(** likewise the source cursor [s_cur] is the number of labels at which the wrapped iterator yielded an element *)
Lemma access_cur_count (u : tid) sh ls l :
  access u sh l -> s_cur sh = n_yield ls -> s_cur (sh_after l sh) = n_yield (l :: ls).
Proof. intros _ H. rewrite sh_after_cur, H. cbn [n_yield]. lia. Qed.

Theorem cursor_is_the_yielding_labels : forall e progs sched,
  s_cur (c_sh (exec e (init progs) sched)) = n_yield (c_labels (exec e (init progs) sched)).
Proof.
  intros e progs sched.
  apply (exec_shared e (fun sh ls => s_cur sh = n_yield ls) access_cur_count). reflexivity.
Qed.

(** ** the label stream of a run is a sequentially consistent history of the three atomics: replayed from the
    oldest label on against a memory that starts at (0, 0, false), every load returns the value of the latest
    write to its site, every fetch_add reports the value it found and writes the wrapped sum, and the memory at
    the end is the model's shared state.  [replay] answers [None] as soon as one label disagrees. *)
Definition mem := (N * N * bool)%type.
Definition mem_apply (l : label) (m : mem) : option mem :=
  let '(mc, my, mf) := m in
  match l with
  | LAtom _ SC ALoad _ ret _ => if ret =? mc then Some m else None
  | LAtom _ SC AStore v _ _ => Some (v, my, mf)
  | LAtom _ SC AAdd n old _ => if old =? mc then Some (wadd old n, my, mf) else None
  | LAtom _ SY ALoad _ ret _ => if ret =? my then Some m else None
  | LAtom _ SY AStore v _ _ => Some (mc, v, mf)
  | LAtom _ SY AAdd n old _ => if old =? my then Some (mc, wadd old n, mf) else None
  | LAtom _ SF ALoad _ ret _ => if ret =? bN mf then Some m else None
  | LAtom _ SF AStore v _ _ => Some (mc, my, negb (v =? 0))
  | LAtom _ SF AAdd _ _ _ => None
  | _ => Some m
  end.
Fixpoint replay (ls : list label) : option mem :=
  match ls with
  | [] => Some (0, 0, false)
  | l :: tl => match replay tl with Some m => mem_apply l m | None => None end
  end.
Definition mem_of (sh : shared) : mem := (s_c sh, s_y sh, s_f sh).

Lemma access_replay (u : tid) sh ls l :
  access u sh l -> replay ls = Some (mem_of sh) -> replay (l :: ls) = Some (mem_of (sh_after l sh)).
Proof.
  intros Ha H. cbn [replay]. rewrite H. unfold mem_of.
  destruct l as [t|t [] [] arg ret o|t [p|]|t]; cbn [access] in Ha; try reflexivity; try contradiction;
    try (destruct Ha as [_ ->]; cbn [mem_apply]; rewrite ?N.eqb_refl); reflexivity.
Qed.

Theorem label_stream_is_sequentially_consistent : forall e progs sched,
  replay (c_labels (exec e (init progs) sched)) = Some (mem_of (c_sh (exec e (init progs) sched))).
Proof.
  intros e progs sched.
  apply (exec_shared e (fun sh ls => replay ls = Some (mem_of sh)) access_replay). reflexivity.
Qed.

(** [replay] is not a constant: a stream whose load disagrees with the latest write is rejected *)
Example replay_rejects :
  replay [LAtom 0%nat SC ALoad 0 5 ORelaxed; LAtom 0%nat SC AAdd 1 0 ORelaxed] = None.
Proof. vm_compute. reflexivity. Qed.

(** ** containment: a step of thread [u] records only events of [u] (its call, its return -- in particular its
    panic report); the events recorded during a schedule belong to the threads of the schedule, so whatever
    happens inside the call of one thread, a panic included, is reported to that thread only *)
Definition ev_by (u : tid) (ev : event) : Prop :=
  match ev with ECall t _ | ERet t _ _ => t = u | EFinal _ _ _ => False end.

Lemma step_events_by e c u :
  exists evs, c_trace (step e c u) = evs ++ c_trace c /\ Forall (ev_by u) evs.
Proof.
  destruct (step_commit e c u) as [->|(ts & l & evs & _ & He & ->)].
  - exists []. split; [reflexivity|constructor].
  - exists evs. split; [reflexivity|exact (step_evs_of u evs He)].
Qed.

Theorem events_belong_to_scheduled_threads : forall e s c,
  exists evs, c_trace (exec e c s) = evs ++ c_trace c /\
              Forall (fun ev => exists u, In u s /\ ev_by u ev) evs.
Proof.
  intros e s. induction s as [|u s IH]; intros c.
  - exists []. split; [reflexivity|constructor].
  - rewrite exec_cons. destruct (IH (step e c u)) as (evs & Ht & Hf).
    destruct (step_events_by e c u) as (evs0 & Ht0 & Hf0).
    exists (evs ++ evs0). split; [rewrite Ht, Ht0, app_assoc; reflexivity|].
    apply Forall_app. split.
    + eapply Forall_impl; [|exact Hf]. intros ev (w & Hw & Hev). exists w. split; [right; exact Hw|exact Hev].
    + eapply Forall_impl; [|exact Hf0]. intros ev Hev. exists u. split; [left; reflexivity|exact Hev].
Qed.

Corollary unscheduled_thread_gets_no_event : forall e s c t, ~ In t s ->
  exists evs, c_trace (exec e c s) = evs ++ c_trace c /\ Forall (fun ev => ~ ev_by t ev) evs.
Proof.
  intros e s c t Hn. destruct (events_belong_to_scheduled_threads e s c) as (evs & Ht & Hf).
  exists evs. split; [exact Ht|]. eapply Forall_impl; [|exact Hf].
  intros ev (u & Hu & Hev) Hb. apply Hn.
  destruct ev; cbn [ev_by] in *; try contradiction; subst; exact Hu.
Qed.
