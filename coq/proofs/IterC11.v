(** * C11 for the wrapper over an arbitrary iterator (ConIterOfIter): try_get_len / has_more are
      truthful, zero is definitive, a reported length never increases (layer D, on top of the layers
      A, B and the coverage invariant C). *)
From Coq Require Import Lia ZArith Permutation.
From OCI Require Import Machine Checkers.
From OCI.proofs Require Import Base Trace ArithOk InvKnown ChkKnown IterBase IterProt InvIterA InvIterB ChkIter Progress IterFair.
Open Scope N_scope.

Lemma zero_reported_min tr : zero_reported tr = true -> min_reported tr = Some 0.
Proof.
  unfold zero_reported. destruct (min_reported tr) as [[|p]|]; intros H; [reflexivity|discriminate H|discriminate H].
Qed.

Lemma zero_reported_suffix s tr : suffix s tr -> zero_reported s = true -> zero_reported tr = true.
Proof. intros [p ->] H. induction p as [|ev p IH]; [assumption|]. apply zero_reported_cons, IH. Qed.

Lemma k_len_eq e c : k_len e c = e_len e - c.
Proof. unfold k_len. destruct (N.ltb_spec c (e_len e)); lia. Qed.

Lemma k_len_mono e a b m : a <= b -> k_len e a <= m -> k_len e b <= m.
Proof. rewrite !k_len_eq. lia. Qed.

Section IterD.

Variable e : env.
Hypothesis Hk : e_kind e = KIter.
(** the wrapped iterator is fused, or its size hint is not exact (the length queries then never read the
    reserved counter: they answer zero when the completed flag is up and "unknown" otherwise) *)
Hypothesis Hgen : fused e \/ e_hint e <> HExact.

Lemma exact_fused : e_hint e = HExact -> fused e.
Proof. intros H. destruct Hgen as [Hfu|Hne]; [exact Hfu|contradiction]. Qed.

Lemma knows_len_iter : knows_len e = match e_hint e with HExact => true | _ => false end.
Proof. unfold knows_len. rewrite Hk. reflexivity. Qed.

(** what a step may do to the shared state: the completed flag is never lowered, the reserved counter does not
    decrease *)
Definition sh_mono (sh sh' : shared) : Prop :=
  (s_f sh = true -> s_f sh' = true) /\ s_c sh <= s_c sh'.

(** in particular when the counter is left alone: the state is unchanged, the flag is raised, the yielded
    counter or the source moves *)
Lemma mono_same sh sh' : (s_f sh = true -> s_f sh' = true) -> s_c sh' = s_c sh -> sh_mono sh sh'.
Proof. intros Hf Hc. split; [exact Hf|]. rewrite Hc. apply N.le_refl. Qed.

(** the reported length [m] is accounted for: the completed flag is up, or the hint is exact and no more than [m]
    positions are left to reserve *)
Definition rep_ok (sh : shared) (m : N) : Prop :=
  s_f sh = true \/ (e_hint e = HExact /\ k_len e (s_c sh) <= m).

Lemma rep_mono sh sh' m : sh_mono sh sh' -> rep_ok sh m -> rep_ok sh' m.
Proof.
  intros [Sf Sm] [H|[Hx H]]; [left; auto|right]. split; [exact Hx|exact (k_len_mono e _ _ m Sm H)].
Qed.

(** the thread will not take an element any more: the completed flag is up and the thread has still to test
    it, or its reservation lies beyond the end of the source *)
Definition takes_none (sh : shared) (p : pc) : Prop :=
  (s_f sh = true /\ before_gate p = true) \/
  (e_hint e = HExact /\ e_len e <= s_c sh /\ forall b n, ticket p = Some (b, n) -> e_len e <= b).

Lemma takes_none_mono sh sh' p : sh_mono sh sh' -> takes_none sh p -> takes_none sh' p.
Proof.
  intros [Sf Sm] [[H1 H2]|(Hx & H1 & H2)]; [left; auto|right].
  split; [exact Hx|split; [exact (N.le_trans _ _ _ H1 Sm)|exact H2]].
Qed.

(** a thread whose call came after a zero was reported takes nothing and holds nothing *)
Definition zero_ok (tr : list event) (sh : shared) (t : tid) (ts : tstate) : Prop :=
  match pend_call t tr with
  | Some (o, older) => zero_reported older = true -> takes_none sh (t_pc ts) /\ got_of (t_pc ts) = [] /\ t_acc ts = []
  | None => True
  end.

(** a query about to read the reserved counter: the hint is exact, and no more positions are left to reserve
    than any length reported before the query was called *)
Definition len2_ok (tr : list event) (sh : shared) (t : tid) (ts : tstate) : Prop :=
  forall hm, t_pc ts = PLen2 hm ->
    e_hint e = HExact /\
    forall o older m, pend_call t tr = Some (o, older) -> min_reported older = Some m -> k_len e (s_c sh) <= m.

Section Threads.

Variable L : list tid.
Hypothesis NDL : NoDup L.

Record IInvD (c : cfg) : Prop := {
  d_rep  : forall m, min_reported (c_trace c) = Some m -> rep_ok (c_sh c) m;
  d_len2 : forall t, len2_ok (c_trace c) (c_sh c) t (c_pool c t);
  d_zr   : forall t, zero_ok (c_trace c) (c_sh c) t (c_pool c t);
  d_evs  : all_rets (ev_C11 e) (c_trace c) = true
}.

Section Step.

Variables (c : cfg) (t : tid).
Hypothesis A : IInvA e L c.
Hypothesis B : IInvB e c.
Hypothesis C : IInvC c.
Hypothesis D : IInvD c.
Hypothesis Hin : In t L.

(** the other threads keep their part under a monotone change of the shared state; a new minimum of the
    reported lengths has to be accounted for *)
Lemma iD_commit sh' ts' l evs :
  Forall (ev_of t) evs -> sh_mono (c_sh c) sh' ->
  (forall m, min_reported (evs ++ c_trace c) = Some m -> min_reported (c_trace c) = Some m \/ rep_ok sh' m) ->
  len2_ok (evs ++ c_trace c) sh' t ts' ->
  zero_ok (evs ++ c_trace c) sh' t ts' ->
  all_rets (ev_C11 e) (evs ++ c_trace c) = true ->
  IInvD (commit c t sh' ts' l evs).
Proof.
  intros Fev M Hrep Hl2 Hzr Hevs.
  split; cbn [commit c_pool c_trace]; try assumption.
  - intros m Hm. destruct (Hrep m Hm) as [H|H]; [|exact H]. apply (rep_mono (c_sh c)); [exact M|apply (d_rep c D m H)].
  - intros u. destruct (Nat.eq_dec u t) as [->|Hn]; [rewrite upd_same; exact Hl2|].
    rewrite upd_other by exact Hn. intros hm Hp. destruct (d_len2 c D u hm Hp) as [Hx Hm]. split; [exact Hx|].
    intros o older m. rewrite (pend_call_others t u evs _ Hn Fev). intros Hpc Hmin.
    exact (k_len_mono e _ _ m (proj2 M) (Hm o older m Hpc Hmin)).
  - intros u. destruct (Nat.eq_dec u t) as [->|Hn]; [rewrite upd_same; exact Hzr|].
    rewrite upd_other by exact Hn. pose proof (d_zr c D u) as Z. unfold zero_ok in *.
    rewrite (pend_call_others t u evs _ Hn Fev).
    destruct (pend_call u (c_trace c)) as [[o older]|]; [|exact I].
    intros Hz. destruct (Z Hz) as (H1 & H2). split; [|exact H2]. apply (takes_none_mono (c_sh c)); assumption.
Qed.

Lemma iD_silent sh' ts' l :
  sh_mono (c_sh c) sh' -> len2_ok (c_trace c) sh' t ts' -> zero_ok (c_trace c) sh' t ts' ->
  IInvD (commit c t sh' ts' l []).
Proof.
  intros M Hl2 Hzr. apply iD_commit; auto. apply (d_evs c D).
Qed.

(** what is known of a thread that called after a zero was reported has to stay true *)
Lemma zero_next sh' ts' :
  (takes_none (c_sh c) (t_pc (c_pool c t)) -> got_of (t_pc (c_pool c t)) = [] -> t_acc (c_pool c t) = [] ->
   takes_none sh' (t_pc ts') /\ got_of (t_pc ts') = [] /\ t_acc ts' = []) ->
  zero_ok (c_trace c) sh' t ts'.
Proof.
  intros H. pose proof (d_zr c D t) as Z. unfold zero_ok in *.
  destruct (pend_call t (c_trace c)) as [[o older]|]; [|exact I].
  intros Hz. destruct (Z Hz) as (H1 & H2 & H3). auto.
Qed.

Lemma zero_keep p p' sh' :
  t_pc (c_pool c t) = p -> sh_mono (c_sh c) sh' ->
  got_of p' = [] \/ got_of p' = got_of p ->
  before_gate p = false \/ before_gate p' = true \/ s_f (c_sh c) = false ->
  ticket p' = ticket p \/ (exists n, ticket p' = Some (s_c (c_sh c), n)) ->
  zero_ok (c_trace c) sh' t (set_pc (c_pool c t) p').
Proof.
  intros Hpc M Hg Hbg Htk. apply zero_next. rewrite Hpc. cbn [set_pc t_pc]. intros H1 H2 H3.
  split; [|split; [destruct Hg as [-> | ->]; [reflexivity|exact H2]|exact H3]].
  apply (takes_none_mono (c_sh c)); [exact M|].
  destruct H1 as [[Hf Hb]|(Hx & Hc & Ht)].
  - left. split; [exact Hf|]. destruct Hbg as [H|[H|H]]; congruence.
  - right. split; [exact Hx|split; [exact Hc|]].
    intros b n Hb. destruct Htk as [E|[n' E]]; rewrite E in Hb; [apply (Ht b n Hb)|].
    injection Hb as <- _. exact Hc.
Qed.

Lemma iD_move q p p' sh' l :
  t_pc (c_pool c t) = p -> req_of p' = Some q -> sh_mono (c_sh c) sh' ->
  got_of p' = [] \/ got_of p' = got_of p ->
  before_gate p = false \/ before_gate p' = true \/ s_f (c_sh c) = false ->
  ticket p' = ticket p \/ (exists n, ticket p' = Some (s_c (c_sh c), n)) ->
  IInvD (commit c t sh' (set_pc (c_pool c t) p') l []).
Proof.
  intros Hpc Hq' M Hg Hbg Htk. apply iD_silent; try assumption.
  - intros hm H. cbn [set_pc t_pc] in H. rewrite H in Hq'. discriminate Hq'.
  - apply zero_keep with p; assumption.
Qed.

Lemma iD_return sh' ts' l r d :
  sh_mono (c_sh c) sh' -> t_pc ts' = PIdle ->
  (forall n, len_answer r = Some (Some n) -> rep_ok sh' n) ->
  ev_C11 e t r d (c_trace c) = true ->
  IInvD (commit c t sh' ts' l [ERet t r d]).
Proof.
  intros M Hp' Hn Hev. apply iD_commit; try assumption; cbn [app].
  - repeat constructor.
  - apply min_reported_ret; auto.
  - intros hm H. rewrite Hp' in H. discriminate H.
  - unfold zero_ok. rewrite pend_call_self_ret. exact I.
  - rewrite all_rets_ret, Hev. apply (d_evs c D).
Qed.

(** a pull returns with a result that is not a length answer: if a zero was reported before the call, the
    thread holds nothing, and the result has to deliver nothing *)
Lemma iD_pull_ret q p sh' ts' l r d :
  t_pc (c_pool c t) = p -> req_of p = Some q -> sh_mono (c_sh c) sh' ->
  t_pc ts' = PIdle -> len_answer r = None ->
  (got_of p = [] -> t_acc (c_pool c t) = [] -> delivers_nothing e r = true) ->
  IInvD (commit c t sh' ts' l [ERet t r d]).
Proof.
  intros Hpc Hreq M Hp' Hla Hdn. rewrite <- Hpc in Hreq.
  destruct (pull_ctx e L c t q A Hreq) as (o & older & Hpend & _ & Hsplit & _).
  apply iD_return; try assumption.
  - intros n H. rewrite Hla in H. discriminate H.
  - apply ev_C11_nolen with o older; [exact Hsplit|exact Hla|].
    intros Hz. pose proof (d_zr c D t) as Z. unfold zero_ok in Z. rewrite Hpend, Hpc in Z.
    destruct (Z Hz) as (_ & H2 & H3). auto.
Qed.

Lemma iD_finish_end q p sh' l :
  t_pc (c_pool c t) = p -> req_of p = Some q -> sh_mono (c_sh c) sh' ->
  IInvD (finish e c t sh' (c_pool c t) l q (Ok PREnd)).
Proof.
  intros Hpc Hreq M. unfold finish, deliver.
  destruct (q_ctx q); apply iD_pull_ret with q p; try assumption; try reflexivity.
  (* a loop returns what it has accumulated *)
  intros _ H. rewrite H. reflexivity.
Qed.

Lemma iD_call o rest : IInvD (call e c t (c_pool c t) o rest).
Proof.
  unfold call. destruct (call_res e (c_pool c t) o) as [p|b r d] eqn:E.
  - apply (call_op_iter e Hk) in E.
    assert (before_gate p = true /\ got_of p = [] /\ ticket p = None /\ forall hm, p <> PLen2 hm) as (Hbg & Hgot & Htk & Hl2)
      by (destruct p; try contradiction E; repeat split; discriminate).
    apply iD_commit; cbn [app].
    + repeat constructor.
    + apply mono_same; auto.
    + auto.
    + intros hm H. contradiction (Hl2 hm H).
    + unfold zero_ok. rewrite pend_call_self_call. cbn [t_pc]. intros Hz.
      split; [|split; [exact Hgot|reflexivity]].
      (* the zero is accounted for: the flag is up, or nothing is left to reserve *)
      destruct (d_rep c D 0 (zero_reported_min _ Hz)) as [Hf|[Hx Hl]]; [left; auto|right].
      rewrite k_len_eq in Hl. split; [exact Hx|split; [apply N.sub_0_le, N.le_0_r; exact Hl|]].
      intros b0 n0 Hb. rewrite Htk in Hb. discriminate Hb.
    + apply (d_evs c D).
  - destruct (null_facts e o r (proj1 (call_ret_null e Hk _ _ _ _ _ E))) as (Hcov & Hla & _).
    apply iD_commit; cbn [app].
    + repeat constructor.
    + apply mono_same; auto.
    + rewrite min_reported_ret_none by exact Hla. auto.
    + intros hm H. discriminate H.
    + unfold zero_ok. rewrite pend_call_self_ret. exact I.
    + rewrite all_rets_ret, all_rets_call, (d_evs c D), andb_true_r.
      apply ev_C11_nolen with o (c_trace c); [cbn [split_call]; rewrite Nat.eqb_refl; reflexivity|exact Hla|].
      unfold delivers_nothing. rewrite Hcov. reflexivity.
Qed.

Lemma iD_src q b g : t_pc (c_pool c t) = PSrc q b g -> IInvD (step e c t).
Proof.
  intros Hpc. destruct (src_step e L c t q b g A Hpc) as (p' & cur' & calls' & l & -> & [(_ & Hp')|(_ & Hlt & Hp')]).
  - apply iD_move with q (PSrc q b g); auto using mono_same; destruct Hp' as [->| ->]; auto.
  - (* the source yields an element: the call of the thread did not come after a reported zero *)
    assert (Hq' : req_of p' = Some q) by (destruct Hp' as [->| ->]; reflexivity).
    apply iD_silent.
    + apply mono_same; auto.
    + intros hm H. cbn [set_pc t_pc] in H. rewrite H in Hq'. discriminate Hq'.
    + apply zero_next. rewrite Hpc. intros [[_ H]|(Hx & _ & H)] _ _; [discriminate H|exfalso].
      specialize (H _ _ eq_refl). pose proof (src_in_ticket e L c t q b g A (exact_fused Hx) Hpc Hlt). lia.
Qed.

Lemma iD_finish_got q b g rs cnt sh' l :
  t_pc (c_pool c t) = PPub q b g -> g <> [] -> sh_mono (c_sh c) sh' ->
  IInvD (finish e c t sh' (c_pool c t) l q (Ok (PRGot b rs cnt))).
Proof.
  intros Hpc Hg M. unfold finish, deliver. destruct (q_ctx q) as [|lk crash].
  - destruct (deliver_top_eq e Hk (c_pool c t) q b rs cnt) as (ts' & d & -> & Hp' & _).
    apply iD_pull_ret with q (PPub q b g); try assumption; try reflexivity.
    + apply top_res_plain.
    + intros H. contradiction (Hg H).
  - unfold deliver_loop. destruct (loop_invoke _ _ _ _ _) as [inv [used|]].
    + apply iD_pull_ret with q (PPub q b g); try assumption; try reflexivity. intros H. contradiction (Hg H).
    + (* the loop goes on *)
      apply iD_silent; try assumption.
      * intros hm H. discriminate H.
      * apply zero_next. rewrite Hpc. intros _ H. contradiction (Hg H).
Qed.

Lemma iD_pub q b g : t_pc (c_pool c t) = PPub q b g -> s_y (c_sh c) + pub_incr q < W -> IInvD (step e c t).
Proof.
  intros Hpc Hw. destruct (pub_step e L c t q b g A Hpc Hw) as (_ & _ & ->).
  destruct g as [|g0 g'].
  - apply iD_finish_end with (PPub q b []); auto using mono_same.
  - apply iD_finish_got with (g0 :: g'); auto using mono_same. discriminate.
Qed.

Lemma iD_unw q b g : t_pc (c_pool c t) = PUnw q b g -> IInvD (step e c t).
Proof.
  intros Hpc. destruct (istep_unw e Hk c t q b g Hpc) as (ts' & d & -> & Hp').
  apply iD_pull_ret with q (PUnw q b g); auto using mono_same.
  intros _ H. rewrite H. reflexivity.
Qed.

Lemma iD_skip : t_pc (c_pool c t) = PSkip -> IInvD (step e c t).
Proof.
  intros Hpc. rewrite (istep_skip e Hk c t Hpc).
  assert (Hni : is_idle (c_pool c t) = false) by (unfold is_idle; rewrite Hpc; reflexivity).
  destruct (call_ctx e L c t A Hni) as (o & older & _ & Hres & Hsplit & _). rewrite Hpc in Hres.
  apply (call_op_iter e Hk) in Hres. cbn [entry_of req_of] in Hres. subst o.
  apply iD_return; auto using mono_same.
  - intros n H. discriminate H.
  - apply ev_C11_nolen with Skip older; [exact Hsplit|reflexivity|reflexivity].
Qed.

Lemma esr_flag older : suffix older (c_trace c) -> end_reported_strong older = true -> s_f (c_sh c) = true.
Proof.
  intros Hsuf H. apply (b_endf e c B). apply (end_reported_suffix older); [exact Hsuf|apply end_strong_end; exact H].
Qed.

Lemma others_idle : is_idle (c_pool c t) = false -> n_pending (c_trace c) = 1%Z ->
  forall u, u <> t -> is_idle (c_pool c u) = true.
Proof.
  intros Hni Hp u Hu. destruct (in_dec Nat.eq_dec u L) as [HuL|HuL]; [|apply (a_out e L c A); assumption].
  rewrite (a_pend e L c A) in Hp. exact (one_pending (c_pool c) L t NDL Hin Hni Hp u HuL Hu).
Qed.

(** what a quiescent query of a fused iterator has to answer: nothing is held and no ticket is alive, so that
    the elements delivered are those the source has yielded, and the source is where the reserved counter is,
    or exhausted *)
Lemma quiet_remaining hm o older :
  fused e -> entry_of (t_pc (c_pool c t)) = PLen hm ->
  n_pending older = 0%Z -> c_trace c = ECall t o :: older -> has_panic older = false ->
  (s_f (c_sh c) = true -> (if skip_returned older then 0 else e_len e - iv_total (cov e older)) = 0) /\
  (skip_returned older = false -> k_len e (s_c (c_sh c)) = e_len e - iv_total (cov e older)).
Proof.
  intros Hfu Hent Hn Htr Hnp.
  assert (Hall : forall u, t_acc (c_pool c u) = [] /\ ticket (pcs_of c u) = None).
  { intros u. unfold pcs_of. destruct (Nat.eq_dec u t) as [->|Hu].
    - pose proof (proj1 (a_wf e L c A t)) as Hok. unfold ipc_ok in Hok.
      destruct (t_pc (c_pool c t)); try discriminate Hent; auto.
    - assert (Hi : is_idle (c_pool c u) = true).
      { apply others_idle; try assumption.
        - unfold is_idle. destruct (t_pc (c_pool c t)); try reflexivity. discriminate Hent.
        - rewrite Htr, n_pending_call. lia. }
      split; [apply (iacc_idle e L c u A Hi)|]. unfold is_idle in Hi.
      destruct (t_pc (c_pool c u)); try discriminate Hi. reflexivity. }
  assert (Hcnt : iv_total (cov e older) = s_cur (c_sh c)).
  { pose proof (a_cnt e L c A) as T. unfold helds in T. rewrite gather_nil, app_nil_r, Htr in T.
    - apply T. unfold npanic. cbn [has_panic]. rewrite Hnp. reflexivity.
    - intros u _. destruct (Hall u) as [Ha Ht]. rewrite held_eq. unfold acc_iv, crit_iv. fold (pcs_of c u). rewrite Ha, Ht. reflexivity. }
  assert (Hup : s_f (c_sh c) = true -> skip_returned older = true \/ s_cur (c_sh c) = e_len e).
  { intros Hf. destruct (b_f e c B Hfu Hf) as [H|[H|H]]; rewrite ?Htr in H; [right; exact H|left; exact H|cbn [has_panic] in H; congruence]. }
  assert (Hdown : s_f (c_sh c) = false -> s_cur (c_sh c) = s_c (c_sh c) \/ s_cur (c_sh c) = e_len e).
  { intros Hf.
    assert (Hyc : ~ s_y (c_sh c) < s_c (c_sh c)).
    { intros Hlt. destruct (C Hf (s_y (c_sh c)) (conj (N.le_refl _) Hlt)) as (u & b0 & n0 & Tu & _).
      destruct (Hall u) as [_ Hn0]. unfold pcs_of in Hn0. rewrite Hn0 in Tu. discriminate Tu. }
    destruct (p_pos _ _ _ _ _ (a_protF e L c A Hfu)) as [H|[H|[H _]]];
      [intros u; apply no_ticket_outside, Hall|left|right; exact H|contradiction].
    rewrite H. apply N.le_antisymm; [apply (p_le _ _ _ _ _ (a_prot e L c A))|apply N.nlt_ge, Hyc]. }
  rewrite k_len_eq, Hcnt.
  assert (Hend : s_cur (c_sh c) = e_len e -> e_len e - s_c (c_sh c) = e_len e - s_cur (c_sh c)).
  { intros H. rewrite H, N.sub_diag. apply N.sub_0_le. rewrite <- H. apply (b_cs e c B Hfu). }
  split.
  - intros Hf. destruct (Hup Hf) as [-> |H]; [reflexivity|]. rewrite H, N.sub_diag. destruct (skip_returned older); reflexivity.
  - intros Hsk. destruct (s_f (c_sh c)).
    + destruct (Hup eq_refl) as [H|H]; [congruence|exact (Hend H)].
    + destruct (Hdown eq_refl) as [H|H]; [rewrite H; reflexivity|exact (Hend H)].
Qed.

Lemma iD_len_ret hm a l :
  (forall n, a = Some n -> rep_ok (c_sh c) n) ->
  ev_C11 e t (len_res hm a) [] (c_trace c) = true ->
  IInvD (commit c t (c_sh c) (set_pc (c_pool c t) PIdle) l [ERet t (len_res hm a) []]).
Proof.
  intros Hrep Hev. apply iD_return; try assumption.
  - apply mono_same; auto.
  - reflexivity.
  - intros n H. rewrite len_answer_len_res in H. injection H as ->. apply Hrep. reflexivity.
Qed.

Lemma iD_len hm : t_pc (c_pool c t) = PLen hm -> IInvD (step e c t).
Proof.
  intros Hpc. rewrite (istep_len e Hk c t hm Hpc).
  assert (Hni : is_idle (c_pool c t) = false) by (unfold is_idle; rewrite Hpc; reflexivity).
  pose proof (f_equal entry_of Hpc) as Hent.
  destruct (call_ctx e L c t A Hni) as (o & older & Hpend & _ & Hsplit & Hsuf).
  destruct (s_f (c_sh c)) eqn:Ef.
  - (* the flag is up: zero *)
    apply iD_len_ret; [intros n _; left; exact Ef|].
    apply ev_C11_len with o older; [exact Hsplit| |intros n m E _; injection E as <-; apply N.le_0_l].
    split; [|reflexivity].
    rewrite knows_len_iter. pose proof exact_fused as Hfu. destruct (e_hint e); try reflexivity.
    apply N.eqb_eq. symmetry. apply (quiet_remaining hm o older (Hfu eq_refl)); assumption.
  - assert (Hnone : e_hint e <> HExact -> forall l,
              IInvD (commit c t (c_sh c) (set_pc (c_pool c t) PIdle) l [ERet t (len_res hm None) []])).
    { (* the flag is down and the hint is not exact: unknown *)
      intros Hne l. apply iD_len_ret; [intros n H; discriminate H|].
      apply ev_C11_len with o older; [exact Hsplit| |intros n m H; discriminate H].
      destruct (end_reported_strong older) eqn:Es; [rewrite (esr_flag older Hsuf Es) in Ef; discriminate Ef|].
      destruct (skip_returned older) eqn:Esk; [rewrite (b_skip e c B (skip_returned_suffix _ _ Hsuf Esk)) in Ef; discriminate Ef|].
      rewrite knows_len_iter. split; [|discriminate]. destruct (e_hint e); [contradiction Hne|..]; reflexivity. }
    destruct (e_hint e) eqn:Eh; [|apply Hnone; discriminate..].
    (* the flag is down and the hint is exact: the reserved counter is read next *)
    apply iD_silent.
    + apply mono_same; auto.
    + intros hm' _. split; [exact Eh|]. intros o' older' m Hp Hm.
      destruct (min_reported_suffix _ _ _ (pend_suffix _ _ _ _ Hp) Hm) as (m' & Em' & Hle).
      destruct (d_rep c D m' Em') as [H|[_ H]]; [congruence|exact (N.le_trans _ _ _ H Hle)].
    + apply zero_keep with (PLen hm); auto using mono_same.
Qed.

Lemma iD_len2 hm : t_pc (c_pool c t) = PLen2 hm -> IInvD (step e c t).
Proof.
  intros Hpc. rewrite (istep_len2 e c t hm Hpc).
  assert (Hni : is_idle (c_pool c t) = false) by (unfold is_idle; rewrite Hpc; reflexivity).
  pose proof (f_equal entry_of Hpc) as Hent.
  destruct (call_ctx e L c t A Hni) as (o & older & Hpend & _ & Hsplit & Hsuf).
  destruct (d_len2 c D t hm Hpc) as [Eh Hm2].
  apply iD_len_ret.
  - intros n E. injection E as <-. right. split; [exact Eh|apply N.le_refl].
  - apply ev_C11_len with o older; [exact Hsplit| |intros n m E Hmin; injection E as <-; apply (Hm2 o older m Hpend Hmin)].
    intros Hn Htr Hnp. destruct (quiet_remaining hm o older (exact_fused Eh) Hent Hn Htr Hnp) as [R1 R2].
    pose proof (b_len2 e c B t hm o older Hpc Hpend) as Hsk. rewrite Hsk in R1. split.
    + rewrite knows_len_iter, Eh, Hsk. apply N.eqb_eq. exact (R2 Hsk).
    + intros Es. rewrite (R2 Hsk). f_equal. apply R1. apply (esr_flag older Hsuf Es).
Qed.

Lemma iD_step : istep_nowrap c t -> IInvD (step e c t).
Proof.
  intros Hw. unfold istep_nowrap in Hw.
  destruct (t_pc (c_pool c t)) as [|q|q b|q b|q b|q b g|q b g|q b g|q b g| |hm|hm] eqn:Hpc.
  - destruct (t_todo (c_pool c t)) as [|o rest] eqn:Htodo.
    + rewrite (step_idle_nil e) by assumption. exact D.
    + rewrite (step_idle_call e c t o rest) by assumption. apply iD_call.
  - rewrite (istep_res e Hk c t q Hpc), wadd_nowrap by exact Hw.
    apply iD_move with q (PRes q); auto.
    + split; [auto|apply N.le_add_r].
    + right. exists (pub_incr q). reflexivity.
  - rewrite (istep_chkf e c t q b Hpc). destruct (s_f (c_sh c)) eqn:Ef.
    + apply iD_finish_end with (PChkF q b); auto using mono_same.
    + apply iD_move with q (PChkF q b); auto using mono_same.
  - rewrite (istep_ldy e c t q b Hpc). destruct (b =? s_y (c_sh c)); [|destruct (b <? s_y (c_sh c))].
    + apply iD_move with q (PLdY q b); auto using mono_same.
    + apply iD_finish_end with (PLdY q b); auto using mono_same.
    + apply iD_move with q (PLdY q b); auto using mono_same.
  - rewrite (istep_chkt e c t q b Hpc). destruct (s_f (c_sh c)) eqn:Ef.
    + apply iD_finish_end with (PChkT q b); auto using mono_same.
    + apply iD_move with q (PChkT q b); auto using mono_same.
  - exact (iD_src q b g Hpc).
  - rewrite (istep_setf e c t q b g Hpc). destruct (q_mode q).
    + apply iD_finish_end with (PSetF q b g); auto using mono_same.
    + apply iD_move with q (PSetF q b g); auto using mono_same.
    + apply iD_move with q (PSetF q b g); auto using mono_same.
  - exact (iD_pub q b g Hpc Hw).
  - exact (iD_unw q b g Hpc).
  - exact (iD_skip Hpc).
  - exact (iD_len hm Hpc).
  - exact (iD_len2 hm Hpc).
Qed.

End Step.

Lemma iD_init progs : IInvD (init progs).
Proof.
  split; try discriminate; reflexivity.
Qed.

Theorem iABCD_exec progs sched :
  (forall t, Forall wf_op (progs t)) ->
  Forall (fun t => In t L) sched ->
  nowrap (c_labels (exec e (init progs) sched)) ->
  IInvA e L (exec e (init progs) sched) /\ IInvB e (exec e (init progs) sched) /\
  IInvC (exec e (init progs) sched) /\ IInvD (exec e (init progs) sched).
Proof.
  intros Hp Hs Hw.
  apply (exec_inv e label_nowrap (fun t => In t L)); [|exact Hs| |exact Hw].
  - clear Hw. intros c t Hin (A & B & C & D) Hw. pose proof (istep_labels e Hk _ _ Hw) as Hn.
    split; [apply iA_step; assumption|]. split; [apply iB_step with L; assumption|].
    split; [apply (iC_step e Hk L); assumption|apply iD_step; assumption].
  - split; [apply iA_init; assumption|]. split; [apply iB_init|]. split; [apply iC_init|apply iD_init].
Qed.

End Threads.

Theorem iter_C11_gen progs sched : wf_progs progs ->
  nowrap (c_labels (exec e (init progs) sched)) -> chk_C11 e (c_trace (exec e (init progs) sched)) = true.
Proof.
  intros Hp Hnw.
  destruct (iABCD_exec (nodup Nat.eq_dec sched) (NoDup_nodup _ _) progs sched Hp) as (_ & _ & _ & D);
    [|exact Hnw|exact (d_evs _ D)].
  apply Forall_forall. intros t Ht. apply nodup_In. exact Ht.
Qed.

End IterD.

(** a fused wrapped iterator with any size hint *)
Theorem iter_C11 : forall e, iter_env e -> fused e -> forall progs, wf_progs progs -> forall sched,
  nowrap (c_labels (exec e (init progs) sched)) ->
  chk_C11 e (c_trace (exec e (init progs) sched)) = true.
Proof. intros e [_ Hk] Hfu progs Hp sched. exact (iter_C11_gen e Hk (or_introl Hfu) progs sched Hp). Qed.

(** any wrapped iterator, fused or not, whose size hint is not exact: the length queries answer zero once the
    completed flag is up and "unknown" before, and a zero is definitive *)
Theorem iter_C11_inexact : forall e, iter_env e -> e_hint e <> HExact -> forall progs, wf_progs progs -> forall sched,
  nowrap (c_labels (exec e (init progs) sched)) ->
  chk_C11 e (c_trace (exec e (init progs) sched)) = true.
Proof. intros e [_ Hk] Hne progs Hp sched. exact (iter_C11_gen e Hk (or_intror Hne) progs sched Hp). Qed.

Print Assumptions iter_C11.
Print Assumptions iter_C11_inexact.
