(** * Borrowed sources are never touched (every kind, the wrapper over an iterator of references
      included): when the iterator does not own its elements, no event of any run reports a destroyed
      element. *)
From Coq Require Import List.
From OCI Require Import Machine Checkers.
From OCI.proofs Require Import Trace InvKnown.
Import ListNotations.
Open Scope N_scope.

Section Borrowed.

Variable e : env.
Hypothesis Hno : e_owning e = false.

Lemma drops_of_list_nil vs : drops_of_list e vs = [].
Proof. unfold drops_of_list. rewrite Hno. reflexivity. Qed.

Fixpoint no_drops (tr : list event) : Prop :=
  match tr with
  | [] => True
  | ERet _ _ d :: tl => d = [] /\ no_drops tl
  | EFinal _ _ d :: tl => d = [] /\ no_drops tl
  | _ :: tl => no_drops tl
  end.

Lemma no_drops_app a b : no_drops a -> no_drops b -> no_drops (a ++ b).
Proof.
  induction a as [|ev a IH]; intros Ha Hb; [exact Hb|]. destruct ev; cbn [app no_drops] in *; try (apply IH; assumption);
    (split; [apply Ha|apply IH; [apply Ha|exact Hb]]).
Qed.

Lemma no_drops_total tr : no_drops tr -> dropped_all tr = [].
Proof.
  induction tr as [|ev tr IH]; intros H; [reflexivity|]. destruct ev; cbn [no_drops dropped_all] in *; try (apply IH; exact H);
    (destruct H as [-> H]; cbn [drops_iv map app]; apply IH; exact H).
Qed.

Lemma deliver_no_drops ts q pr : match snd (deliver e ts q pr) with Some (_, d) => d = [] | None => True end.
Proof.
  unfold deliver. destruct (q_ctx q) as [|l cr]; destruct pr as [[|b rs cnt]|k]; try reflexivity.
  - unfold deliver_top. destruct (q_mode q); [reflexivity|apply not_owning_drops_after, Hno|].
    destruct (e_kind e); try apply not_owning_drops_after, Hno.
    destruct (t_buf ts) as [bf|]; [|apply not_owning_drops_after, Hno].
    destruct (write_slots (bf_slots bf) (runs_vals rs)). apply drops_of_list_nil.
  - unfold deliver_loop. destruct (loop_invoke l cr (total_cnt (t_acc ts)) rs cnt) as [inv [used|]]; [|exact I].
    apply not_owning_drops_after, Hno.
Qed.

Lemma finish_no_drops c t sh ts l q pr : no_drops (c_trace c) -> no_drops (c_trace (finish e c t sh ts l q pr)).
Proof.
  intros H. unfold finish. pose proof (deliver_no_drops ts q pr) as D.
  destruct (deliver e ts q pr) as [ts' [[r d]|]]; [split; [exact D|exact H]|exact H].
Qed.

Lemma call_no_drops c t ts o rest : no_drops (c_trace c) -> no_drops (c_trace (call e c t ts o rest)).
Proof.
  intros H. unfold call, call_res.
  destruct o as [v|n k|n|k| |l n cr| | |]; try exact H.
  - destruct (e_kind e), (n =? 0); first [exact H|split; [reflexivity|exact H]].
  - destruct (n =? 0); (split; [|exact H]); [reflexivity|apply not_owning_stale, Hno].
  - destruct (t_buf ts); [exact H|split; [reflexivity|exact H]].
  - split; [apply not_owning_stale, Hno|exact H].
  - destruct (n =? 0); [split; [reflexivity|exact H]|destruct (n =? 1); exact H].
Qed.

(** apart from the call point and the end of a pull, a step reports destroyed elements where a panic of the
    wrapped iterator unwinds and where [skip_to_end] discards the remainder *)
Lemma step_no_drops c t : no_drops (c_trace c) -> no_drops (c_trace (step e c t)).
Proof.
  intros H. pose proof (fun sh ts l q pr => finish_no_drops c t sh ts l q pr H) as Hfin.
  assert (Hret : forall sh ts l r d, d = [] -> no_drops (c_trace (commit c t sh ts l [ERet t r d])))
    by (intros sh ts l r d Hd; split; assumption).
  unfold step. destruct (t_pc (c_pool c t)) as [|q|q b|q b|q b|q b got|q b got|q b got|q b got| |hm|hm].
  - destruct (t_todo _); [exact H|apply call_no_drops, H].
  - destruct (e_kind e); first [exact H|apply Hfin].
  - destruct (s_f _); [apply Hfin|exact H].
  - destruct (b =? _); [|destruct (b <? _)]; first [exact H|apply Hfin].
  - destruct (s_f _); [apply Hfin|exact H].
  - destruct (crashes_now _ _); [|destruct (q_mode q), (src_next _ _); try destruct (_ =? q_n q)]; exact H.
  - destruct (q_mode q); first [exact H|apply Hfin].
  - destruct (q_mode q); [|destruct (_ =? b); [destruct (rev got)|]..]; apply Hfin.
  - destruct (q_ctx q); [destruct (q_mode q); [| |destruct (e_kind e); [| | | |destruct (t_buf _); [destruct (write_slots _ _)|]]]|];
      apply Hret, drops_of_list_nil.
  - destruct (e_kind e); try (apply Hret; reflexivity);
      destruct (k_fetch_n _ _ _) as [[|? ? ?]|]; apply Hret; first [reflexivity|apply not_owning_drops_after, Hno].
  - destruct (e_kind e); [..|destruct (s_f _); [|destruct (e_hint e)]]; first [exact H|apply Hret; reflexivity].
  - apply Hret. reflexivity.
Qed.

Lemma exec_no_drops sched : forall c, no_drops (c_trace c) -> no_drops (c_trace (exec e c sched)).
Proof.
  induction sched as [|t s IH]; intros c H; [exact H|]. apply IH, step_no_drops, H.
Qed.

Lemma final_no_drops c t f : no_drops (c_trace c) -> no_drops (c_trace (final_step e c t f)).
Proof.
  intros H. unfold final_step, seq_res.
  destruct f as [|k], (e_kind e); try destruct (add_u _ _ _); try destruct (_ <? e_len e);
    (split; [|exact H]); first [reflexivity|apply not_owning_drops_run, Hno].
Qed.

End Borrowed.

(** no element of a borrowed source is ever destroyed: every kind, every program, every schedule, also at
    the end of life -- no hypothesis on the run at all *)
Theorem borrowed_source_untouched : forall e, e_owning e = false -> forall progs sched,
  dropped_all (c_trace (exec e (init progs) sched)) = [] /\
  forall t f, dropped_all (c_trace (final_step e (exec e (init progs) sched) t f)) = [].
Proof.
  intros e Hno progs sched.
  assert (H : no_drops (c_trace (exec e (init progs) sched))) by (apply exec_no_drops; [exact Hno|exact I]).
  split; [apply no_drops_total; exact H|].
  intros t f. apply no_drops_total. apply final_no_drops; assumption.
Qed.
