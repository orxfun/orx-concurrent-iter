(** * The hypothesis [nowrap] is necessary: two runs of the model on which a [fetch_add] wraps a counter
      around and a property fails, exactly as it fails on the crate (findings F14 and F16).

    The theorems that a checker is true on every run assume [nowrap (c_labels ...)]: no [fetch_add] of the run has
    [old + n >= 2^64].  The two runs below meet every other hypothesis of those theorems; the conclusions
    are false on them.  Each run is evaluated once, by [vm_compute] on the whole statement about it (the numbers
    are binary; [nowrap] is stated through its decision procedure for that purpose). *)
From Coq Require Import Lia ZArith List.
From OCI Require Import Machine Checkers.
From OCI.proofs Require Import Base Trace ArithOk InvKnown ChkKnown IterBase ChkIter ChkAll IterFair RunC16.
Import ListNotations.
Open Scope N_scope.

(** [nowrap] is decided by [forallb label_nowrapb] (the other direction is [IterFair.nowrapb_ok]) *)
Lemma nowrapb_complete ls : nowrap ls -> forallb label_nowrapb ls = true.
Proof.
  intros H. apply forallb_forall. intros l Hl. unfold nowrap in H. rewrite Forall_forall in H. specialize (H l Hl).
  unfold label_nowrap in H. unfold label_nowrapb. destruct l as [| t s k n old o| |]; try reflexivity.
  destruct k; try reflexivity. apply N.ltb_lt. exact H.
Qed.

Lemma not_nowrap ls : forallb label_nowrapb ls = false -> ~ nowrap ls.
Proof. intros H Hn. rewrite (nowrapb_complete ls Hn) in H. discriminate H. Qed.

(** ** F14: the reserved counter of the wrapper over an arbitrary iterator wraps

    Thread 0: [next(); next_chunk(usize::MAX)].  The single pull leaves the reserved counter at 1; the chunk
    pull adds [usize::MAX] to it: the counter wraps to 0 and thread 0 holds the ticket 1.  Thread 1:
    [next(); next()].  Its first pull reserves the ticket 0, which is already behind the yielded counter
    (it is told the end); its second pull reserves the ticket 1 -- the ticket thread 0 holds.  The yielded
    counter is 1: both threads find their turn, and both are inside the wrapped next() together. *)
Definition f14_env : env :=
  {| e_kind := KIter; e_adaptor := ANone; e_len := 6; e_start := 0; e_end := 6; e_hint := HNone;
     e_owning := false; e_mode := Wrapping; e_crash := None; e_gap := fun _ => false |}.

Definition f14_progs : tid -> list op := fun t =>
  match t with
  | 0%nat => [Next NVal; Chunk 18446744073709551615 1]
  | 1%nat => [Next NVal; Next NVal]
  | _ => []
  end.

(** the schedule of the corpus case f14_reserved_wrap_iter *)
Definition f14_sched : list tid :=
  [0; 0; 0; 0; 0; 0; 0; 0; 0; 1; 1; 1; 1; 1; 1; 1; 1; 1; 0; 0; 0; 0; 1; 1; 1; 1; 0; 0; 0; 0; 0; 0; 0; 0]%nat.

(** its first 21 steps: both threads are about to call the wrapped next() *)
Definition f14_sched_overlap : list tid := firstn 21 f14_sched.

Lemma f14_iter_env : iter_env f14_env.
Proof. repeat split. Qed.

Lemma f14_wf_progs : wf_progs f14_progs.
Proof. intros [|[|t]]; repeat constructor. Qed.

Lemma f14_plain_progs : plain_progs f14_progs.
Proof. intros [|[|t]]; repeat constructor. Qed.

(** the whole run of the corpus case: the label stream and the history.  Thread 0 is handed position 1 and
    thread 1 position 2 while both are inside; thread 0 then drains the wrapped iterator and fails the
    assertion of its publication (the yielded counter has moved under it) *)
Lemma f14_run :
  let c := exec f14_env (init f14_progs) f14_sched in
  rev (c_labels c) =
    [LCall 0%nat; LAtom 0%nat SC AAdd 1 0 ord_counter_fetch_and_increment;
     LAtom 0%nat SF ALoad 0 0 ord_completed_load_get; LAtom 0%nat SY ALoad 0 0 ord_yielded_read_get;
     LAtom 0%nat SF ALoad 0 0 ord_completed_load_get_turn; LSrc 0%nat (Some 0);
     LAtom 0%nat SY AAdd 1 0 ord_yielded_publish_single;
     LCall 0%nat; LAtom 0%nat SC AAdd 18446744073709551615 1 ord_counter_fetch_and_add;
     LCall 1%nat; LAtom 1%nat SC AAdd 1 0 ord_counter_fetch_and_increment;
     LAtom 1%nat SF ALoad 0 0 ord_completed_load_get; LAtom 1%nat SY ALoad 0 1 ord_yielded_read_get;
     LCall 1%nat; LAtom 1%nat SC AAdd 1 1 ord_counter_fetch_and_increment;
     LAtom 1%nat SF ALoad 0 0 ord_completed_load_get; LAtom 1%nat SY ALoad 0 1 ord_yielded_read_get;
     LAtom 1%nat SF ALoad 0 0 ord_completed_load_get_turn;
     LAtom 0%nat SF ALoad 0 0 ord_completed_load_progress; LAtom 0%nat SY ALoad 0 1 ord_yielded_read_progress;
     LAtom 0%nat SF ALoad 0 0 ord_completed_load_progress_turn;
     LSrc 0%nat (Some 1); LSrc 1%nat (Some 2);
     LAtom 1%nat SY AAdd 1 1 ord_yielded_publish_single;
     LSrc 0%nat (Some 3); LSrc 0%nat (Some 4); LSrc 0%nat (Some 5); LSrc 0%nat None;
     LAtom 0%nat SF AStore 1 0 ord_completed_store_complete;
     LAtom 0%nat SY AAdd 18446744073709551615 2 ord_yielded_publish_chunk] /\
  rev (c_trace c) =
    [ECall 0%nat (Next NVal); ERet 0%nat (ROne (mk_run None 0 1)) [];
     ECall 0%nat (Chunk 18446744073709551615 1);
     ECall 1%nat (Next NVal); ERet 1%nat RNone [];
     ECall 1%nat (Next NVal); ERet 1%nat (ROne (mk_run None 2 1)) [];
     ERet 0%nat (RPanic PkAssert []) []] /\
  chk_C07_mutex (c_labels c) = false.
Proof. vm_compute. repeat split. Qed.

(** the state form, after the first 21 steps: the fetch_add of thread 0's chunk pull (the ninth label) wrapped
    the reserved counter ([old + n = 1 + usize::MAX = 2^64]); both threads hold the ticket 1 and are about to
    call the wrapped next(); the scan of the label stream objects *)
Lemma f14_overlap :
  let c := exec f14_env (init f14_progs) f14_sched_overlap in
  nth_error (rev (c_labels c)) 8 = Some (LAtom 0%nat SC AAdd 18446744073709551615 1 ord_counter_fetch_and_add) /\
  forallb label_nowrapb (c_labels c) = false /\
  t_pc (c_pool c 0%nat) = PSrc {| q_n := 18446744073709551615; q_mode := MChunk 1; q_ctx := CTop |} 1 [] /\
  t_pc (c_pool c 1%nat) = PSrc {| q_n := 1; q_mode := MSingle NVal; q_ctx := CTop |} 1 [] /\
  s_c (c_sh c) = 2 /\ s_y (c_sh c) = 1 /\
  chk_C07_mutex (c_labels c) = false.
Proof. vm_compute. repeat split. Qed.

(** C07 without [nowrap]: every other hypothesis of [c07_mutual_exclusion] / [c07_label_stream_scan] holds,
    the scan of the label stream answers [false], and two distinct threads are inside their critical
    sections in the same configuration *)
Theorem f14_mutual_exclusion_fails_when_the_reserved_counter_wraps :
  exists e progs sched, iter_env e /\ fused e /\ e_crash e = None /\ wf_progs progs /\ plain_progs progs /\
    ~ nowrap (c_labels (exec e (init progs) sched)) /\
    chk_C07_mutex (c_labels (exec e (init progs) sched)) = false /\
    exists t u, t <> u /\
      in_crit (t_pc (c_pool (exec e (init progs) sched) t)) = true /\
      in_crit (t_pc (c_pool (exec e (init progs) sched) u)) = true.
Proof.
  exists f14_env, f14_progs, f14_sched_overlap.
  destruct f14_overlap as (_ & Hw & H0 & H1 & _ & _ & Hm).
  split; [exact f14_iter_env|]. split; [intros k; reflexivity|]. split; [reflexivity|].
  split; [exact f14_wf_progs|]. split; [exact f14_plain_progs|]. split; [exact (not_nowrap _ Hw)|]. split; [exact Hm|].
  exists 0%nat, 1%nat. split; [discriminate|]. rewrite H0, H1. split; reflexivity.
Qed.

(** ** F16: the position counter of a known-size kind wraps

    A source of [usize::MAX] elements (for a range: [0..usize::MAX]); one thread:
    [next_chunk(usize::MAX); next(); next()].  The chunk pull moves the position counter to [usize::MAX]
    (no wrap: [0 + usize::MAX < 2^64]) and delivers the whole source.  The first [next()] reads
    [usize::MAX], reports the end -- and its fetch_and_increment wraps the counter to 0.  The second
    [next()] reads 0 and delivers position 0 a second time, after the end was reported. *)
Definition f16_env (k : kind) : env :=
  {| e_kind := k; e_adaptor := ANone; e_len := 18446744073709551615; e_start := 0; e_end := 18446744073709551615;
     e_hint := HExact; e_owning := match k with KVec | KArray => true | _ => false end;
     e_mode := Wrapping; e_crash := None; e_gap := fun _ => false |}.

Definition f16_progs : tid -> list op := fun t =>
  match t with
  | 0%nat => [Chunk 18446744073709551615 1; Next NIdVal; Next NIdVal]
  | _ => []
  end.

Definition f16_sched : list tid := repeat 0%nat 6.

Lemma f16_known_env k : is_known k = true -> known_env (f16_env k).
Proof. intros Hk. destruct k; try discriminate Hk; repeat split. Qed.

Lemma f16_wf_progs : wf_progs f16_progs.
Proof. intros [|t]; repeat constructor. Qed.

Lemma f16_plain_progs : plain_progs f16_progs.
Proof. intros [|t]; repeat constructor. Qed.

Lemma f16_run k : is_known k = true ->
  let e := f16_env k in
  let c := exec e (init f16_progs) f16_sched in
  rev (c_labels c) =
    [LCall 0%nat; LAtom 0%nat SC AAdd 18446744073709551615 0 ord_counter_fetch_and_add;
     LCall 0%nat; LAtom 0%nat SC AAdd 1 18446744073709551615 ord_counter_fetch_and_increment;
     LCall 0%nat; LAtom 0%nat SC AAdd 1 0 ord_counter_fetch_and_increment] /\
  rev (c_trace c) =
    [ECall 0%nat (Chunk 18446744073709551615 1);
     ERet 0%nat (RChunk 0 [mk_run (Some 0) 0 1] 18446744073709551615 1 18446744073709551614)
          (if e_owning e then [{| d_lo := 1; d_cnt := 18446744073709551614 |}] else []);
     ECall 0%nat (Next NIdVal); ERet 0%nat RNone [];
     ECall 0%nat (Next NIdVal); ERet 0%nat (ROne (mk_run (Some 0) 0 1)) []] /\
  forallb label_nowrapb (c_labels c) = false /\
  chk_C01_nodup e (c_trace c) = false /\
  check_prop 4 e (c_trace c) (c_labels c) = false /\
  check_prop 5 e (c_trace c) (c_labels c) = false /\
  check_prop 16 e (c_trace c) (c_labels c) = false /\
  (* nothing panics: what fails in [check_prop 16] is the delivery of a position twice *)
  chk_C16 e (c_trace c) = true.
Proof. intros Hk. destruct k; try discriminate Hk; vm_compute; repeat split. Qed.

(** C16 (and C01, C05) without [nowrap]: every other hypothesis of [c16_runs_known_kinds] holds; position
    0 is delivered twice ([chk_C01_nodup], a conjunct of [check_prop 16]) and after the end was reported
    ([check_prop 5]) *)
Theorem f16_exactly_once_and_end_permanence_fail_when_the_position_counter_wraps :
  forall k, is_known k = true ->
  exists e progs sched, e_kind e = k /\ known_env e /\ wf_progs progs /\ plain_progs progs /\
    ~ nowrap (c_labels (exec e (init progs) sched)) /\
    chk_C01_nodup e (c_trace (exec e (init progs) sched)) = false /\
    check_prop 5 e (c_trace (exec e (init progs) sched)) (c_labels (exec e (init progs) sched)) = false /\
    check_prop 16 e (c_trace (exec e (init progs) sched)) (c_labels (exec e (init progs) sched)) = false.
Proof.
  intros k Hk. exists (f16_env k), f16_progs, f16_sched.
  destruct (f16_run k Hk) as (_ & _ & Hw & H1 & _ & H5 & H16 & _).
  split; [reflexivity|]. split; [exact (f16_known_env k Hk)|]. split; [exact f16_wf_progs|].
  split; [exact f16_plain_progs|]. split; [exact (not_nowrap _ Hw)|]. split; [exact H1|]. split; [exact H5|exact H16].
Qed.

Theorem f16_refuted :
  exists e progs sched, known_env e /\ wf_progs progs /\ plain_progs progs /\
    ~ nowrap (c_labels (exec e (init progs) sched)) /\
    chk_C01_nodup e (c_trace (exec e (init progs) sched)) = false /\
    check_prop 5 e (c_trace (exec e (init progs) sched)) (c_labels (exec e (init progs) sched)) = false /\
    check_prop 16 e (c_trace (exec e (init progs) sched)) (c_labels (exec e (init progs) sched)) = false.
Proof.
  destruct (f16_exactly_once_and_end_permanence_fail_when_the_position_counter_wraps KRange eq_refl)
    as (e & progs & sched & _ & H). exists e, progs, sched. exact H.
Qed.
