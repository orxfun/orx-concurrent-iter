(** * C09: progress.

    Known-size kinds (slice, vector, array, range and their adaptors) are wait-free: a thread inside
    a call returns after at most [budget] of ITS OWN steps, whatever the other threads do or do not do
    in between -- in particular a thread frozen anywhere, for ever, delays nobody.  The budget is 1 for
    every operation but the loops (for_each / enumerate_for_each / fold), whose budget is one pull per
    element still to be handed out plus the pull that sees the end. *)
From Coq Require Import Lia ZArith Permutation.
From OCI Require Import Machine Checkers.
From OCI.proofs Require Import Base Trace ArithOk InvKnown ChkKnown.
Open Scope N_scope.

(** number of calls of thread [t] that have returned *)
Fixpoint rets (t : tid) (tr : list event) : nat :=
  match tr with
  | [] => 0
  | ERet u _ _ :: tl => (if Nat.eqb u t then 1 else 0) + rets t tl
  | _ :: tl => rets t tl
  end.

Lemma rets_app t a b : rets t (a ++ b) = (rets t a + rets t b)%nat.
Proof. induction a as [|ev a IH]; cbn [app rets]; [reflexivity|]. destruct ev; rewrite IH; lia. Qed.

Lemma step_rets_mono e c u t : (rets t (c_trace c) <= rets t (c_trace (step e c u)))%nat.
Proof.
  destruct (step_commit e c u) as [->|(ts & l & evs & _ & _ & ->)]; [lia|].
  cbn [commit c_trace]. rewrite rets_app. lia.
Qed.

Lemma exec_rets_mono e c s t : (rets t (c_trace c) <= rets t (c_trace (exec e c s)))%nat.
Proof.
  revert c. induction s as [|u s IH]; intros c; cbn [exec fold_left]; [lia|].
  etransitivity; [apply (step_rets_mono e c u t)|apply IH].
Qed.

Lemma rets_ret c t sh ts l r d : rets t (c_trace (commit c t sh ts l [ERet t r d])) = S (rets t (c_trace c)).
Proof. cbn [commit c_trace app rets]. rewrite Nat.eqb_refl. reflexivity. Qed.

(** a finished pull that does not return is the pull of a loop that got something: the loop pulls again *)
Lemma deliver_goes_on e ts q pr ts' : deliver e ts q pr = (ts', None) ->
  t_pc ts' = PRes q /\ exists l cr b rs cnt, q_ctx q = CLoop l cr /\ pr = Ok (PRGot b rs cnt).
Proof.
  unfold deliver. destruct (q_ctx q) as [|l cr], pr as [[|b rs cnt]|k]; try discriminate.
  - destruct (deliver_top e ts q b rs cnt); discriminate.
  - unfold deliver_loop. destruct (loop_invoke l cr (total_cnt (t_acc ts)) rs cnt) as [inv [used|]]; [discriminate|].
    intros [= <-]. split; [reflexivity|]. exists l, cr, b, rs, cnt. split; reflexivity.
Qed.

Section KnownProgress.

Variable e : env.
Hypothesis He : wf_env e.
Hypothesis Hk : is_known (e_kind e) = true.
Hypothesis Hown : e_owning e = match e_kind e with KVec | KArray => true | _ => false end.
Variable L : list tid.
Hypothesis NDL : NoDup L.

(** own steps a thread needs at most before its current call returns *)
Definition budget (c : cfg) (t : tid) : nat :=
  match t_pc (c_pool c t) with
  | PIdle => 0
  | PRes q => match q_ctx q with CTop => 1 | CLoop _ _ => 1 + N.to_nat (e_len e - s_c (c_sh c)) end
  | _ => 1
  end.

Lemma nowrap_exec_prefix c s : nowrap (c_labels (exec e c s)) -> nowrap (c_labels c).
Proof.
  revert c. induction s as [|u s IH]; intros c H; [exact H|].
  apply IH in H. eapply step_labels_suffix. exact H.
Qed.

(** a step of a thread in a call: the position counter does not go back (except that skip_to_end may set it
    to the length), and the call returns or the budget of the thread shrinks (a loop has handed out elements
    and pulls again) *)
Lemma known_step c t :
  KInv e L c -> step_nowrap e c t ->
  (s_c (c_sh c) <= s_c (c_sh (step e c t)) \/ s_c (c_sh (step e c t)) = e_len e) /\
  (t_pc (c_pool c t) <> PIdle ->
   rets t (c_trace (step e c t)) = S (rets t (c_trace c)) \/
   (t_pc (c_pool (step e c t) t) <> PIdle /\ (budget (step e c t) t < budget c t)%nat)).
Proof.
  intros I Hw. unfold step_nowrap in Hw.
  destruct (k_wf e L c I t) as (Hok & _ & _). unfold kpc_ok in Hok.
  destruct (t_pc (c_pool c t)) as [|q| | | | | | | | |hm|] eqn:Epc; try contradiction.
  - split; [left|intros H; contradiction H; reflexivity].
    unfold step. rewrite Epc. destruct (t_todo (c_pool c t)); [apply N.le_refl|].
    unfold call. destruct (call_res e (c_pool c t) o); apply N.le_refl.
  - destruct Hok as (Hq & _). rewrite (step_res e Hk c t q Epc). unfold finish.
    destruct (deliver e (c_pool c t) q (k_pull e q (s_c (c_sh c)))) as [ts' o] eqn:Ed.
    cbn [commit c_sh c_pool with_c s_c]. unfold wadd. rewrite N.mod_small by exact Hw.
    split; [left; lia|intros _]. destruct o as [[r d]|]; [left; apply rets_ret|right].
    apply deliver_goes_on in Ed. destruct Ed as (Hts & l & cr & b & rs & cnt & Ectx & Epull).
    rewrite (k_pull_spec e q _ He Hq) in Epull. unfold pull_spec in Epull.
    destruct ((s_c (c_sh c) <? e_len e) && (0 <? q_n q)) eqn:Eg; [|discriminate Epull].
    apply andb_true_iff in Eg. destruct Eg as [E1 E2]. apply N.ltb_lt in E1, E2.
    unfold budget. cbn [commit c_pool c_sh with_c s_c]. rewrite upd_same, Hts, Epc, Ectx. split; [discriminate|].
    assert (1 <= k_incr e q) by (unfold k_incr; destruct (q_mode q); lia). lia.
  - rewrite (step_skip e He Hk Hown c t Epc). pose proof (owning_kind e Hk Hown) as Hkind. destruct (e_owning e).
    + assert (Hw' : s_c (c_sh c) + e_len e < W) by (destruct (Hkind eq_refl) as [K|K]; rewrite K in Hw; exact Hw).
      split; [left|intros _; left; apply rets_ret]. cbn [commit c_sh with_c s_c]. rewrite (wadd_nowrap _ _ Hw'). lia.
    + split; [right; reflexivity|intros _; left; apply rets_ret].
  - rewrite (step_len e Hk c t hm Epc). split; [left; apply N.le_refl|intros _; left; apply rets_ret].
Qed.

Lemma budget_pos c t : t_pc (c_pool c t) <> PIdle -> (1 <= budget c t)%nat.
Proof.
  unfold budget. destruct (t_pc (c_pool c t)) as [|q| | | | | | | | | |]; try lia; [contradiction|].
  destruct (q_ctx q); lia.
Qed.

(** wait-freedom: [t] is inside a call; in any continuation in which [t] takes at least [budget] steps
    -- the other threads may take any steps or none -- that call has returned *)
Theorem wait_free : forall s c t,
  KInv e L c -> Forall (fun u => In u L) s ->
  nowrap (c_labels (exec e c s)) ->
  t_pc (c_pool c t) <> PIdle ->
  (budget c t <= count_occ Nat.eq_dec s t)%nat ->
  (rets t (c_trace c) < rets t (c_trace (exec e c s)))%nat.
Proof.
  induction s as [|u s IH]; intros c t I Hs Hnw Hpc Hb; cbn [count_occ] in Hb.
  - pose proof (budget_pos c t Hpc). lia.
  - rewrite exec_cons in *. inversion Hs as [|? ? Hu Hs']; subst.
    pose proof (step_labels e Hk c u (nowrap_exec_prefix _ _ Hnw)) as Hw.
    pose proof (kinv_step e He Hk Hown L NDL c u I Hu Hw) as I'.
    pose proof (step_rets_mono e c u t).
    destruct (Nat.eq_dec u t) as [->|Hne].
    + destruct (proj2 (known_step c t I Hw) Hpc) as [Hr|(Hpc' & Hlt)].
      * pose proof (exec_rets_mono e (step e c t) s t). lia.
      * specialize (IH _ t I' Hs' Hnw Hpc'). lia.
    + assert (t <> u) as Hne' by congruence.
      assert (budget (step e c u) t <= budget c t)%nat.
      { unfold budget. rewrite (step_pool_other e c u t Hne').
        destruct (t_pc (c_pool c t)) as [|q| | | | | | | | | |]; try lia.
        destruct (q_ctx q); [lia|]. destruct (proj1 (known_step c u I Hw)); lia. }
      rewrite <- (step_pool_other e c u t Hne') in Hpc. specialize (IH _ t I' Hs' Hnw Hpc). lia.
Qed.

End KnownProgress.

(** ** wait-freedom in every reachable state of a known-size kind *)


Theorem known_wait_free : forall e, known_env e -> forall progs, wf_progs progs ->
  forall sched s t,
  nowrap (c_labels (exec e (init progs) (sched ++ s))) ->
  t_pc (c_pool (exec e (init progs) sched) t) <> PIdle ->
  (budget e (exec e (init progs) sched) t <= count_occ Nat.eq_dec s t)%nat ->
  (rets t (c_trace (exec e (init progs) sched)) < rets t (c_trace (exec e (init progs) (sched ++ s))))%nat.
Proof.
  intros e (He & Hk & Hown) progs Hp sched s t Hnw Hpc Hb.
  set (L := nodup Nat.eq_dec (sched ++ s)).
  assert (HL : Forall (fun u => In u L) (sched ++ s)) by (apply Forall_forall; intros u Hu; apply nodup_In, Hu).
  apply Forall_app in HL. destruct HL as [HL1 HL2]. rewrite exec_app in *.
  apply (wait_free e He Hk Hown L (NoDup_nodup _ _)); try assumption.
  apply kinv_exec; try assumption. apply NoDup_nodup. eapply nowrap_exec_prefix, Hnw.
Qed.

(** non-vacuity: a reachable state in which a loop is running (budget 3) next to a thread that has pulled *)
Example wait_free_applies :
  let e := {| e_kind := KVec; e_adaptor := ANone; e_len := 5; e_start := 0; e_end := 0; e_hint := HExact;
              e_owning := true; e_mode := Wrapping; e_crash := None; e_gap := fun _ => false |} in
  let progs := fun t => match t with 0%nat => [Loop LForEach 2 None] | 1%nat => [Next NVal; Chunk 2 1] | _ => [] end in
  let c := exec e (init progs) [0; 1; 0; 1]%nat in
  t_pc (c_pool c 0%nat) <> PIdle /\ budget e c 0%nat = 3%nat /\ t_pc (c_pool c 1%nat) = PIdle.
Proof. vm_compute. repeat split; discriminate. Qed.
